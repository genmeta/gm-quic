(* C17 — closing or failing a connection ends every pending operation.
   Only the property theorems live here; the lemmas are in Proofs/ConnState.v (state code), Proofs/ConnError.v,
   ConnErrorLater.v, ConnErrorFlag.v (the error fan-out and what follows it), Proofs/ConnEnd.v and Proofs/Idle.v. *)
From Coq Require Import List ZArith NArith Bool Lia.
From GQ Require Import Model.ConnState Model.Idle Model.ConnError Model.ConnEnd Proofs.ConnEnd Proofs.ConnState Proofs.Idle Proofs.ConnError Proofs.ConnErrorLater Proofs.ConnErrorFlag.
Import ListNotations.

(* for any set of racing callers (local close, the peer's CONNECTION_CLOSE, protocol errors, the
   handshake, bare updates, Terminated) and any schedule of their atomic steps, the state code at a
   later point of the execution is never below the code at an earlier point *)
Theorem c17_monotone : forall calls s1 s2,
  (word (g_sh (grun (g_init calls) s1)) <= word (g_sh (grun (g_init calls) (s1 ++ s2))))%N.
Proof. intros. rewrite grun_app. apply grun_le. Qed.

(* the codes regenerated from state.rs are ordered as the life cycle *)
Theorem c17_order :
  (initial_word < attempted_code /\ attempted_code < confirmed_code /\ confirmed_code < closing_code /\
   closing_code < draining_code /\ draining_code < closed_code)%N.
Proof. vm_compute. repeat split; reflexivity. Qed.

(* 256: the state word is an AtomicU8 *)
Theorem c17_table :
  Forall (fun sc => encode (fst sc) = Some (snd sc) /\ decode (snd sc) = Some (fst sc) /\
                    (0 < snd sc)%N /\ (snd sc < 256)%N) state_table.
Proof. vm_compute. repeat constructor. Qed.

(* the terminating error is fixed once: under every schedule no expect()/unreachable!() fires, the
   error never changes once set, is set only from the closing code on, and is set whenever the
   closing code was reached and nobody is in the middle of a call; the handshaked cell likewise is
   never set below the confirmed code *)
Theorem c17_error_once : forall calls sched,
  Forall (fun c => wf_call c = true) calls ->
  let g := grun (g_init calls) sched in
  Forall (fun t => panicked t = false) (g_tasks g) /\
  (forall e sched', term (g_sh g) = Some e -> term (g_sh (grun g sched')) = Some e) /\
  (term (g_sh g) <> None -> (closing_code <= word (g_sh g))%N) /\
  (quiescent g = true -> (closing_code <= word (g_sh g))%N -> term (g_sh g) <> None) /\
  (hs (g_sh g) = true -> (confirmed_code <= word (g_sh g))%N).
Proof.
  intros calls sched Hwf g.
  pose proof (Proofs.ConnState.inv_run sched _ (Proofs.ConnState.inv_init calls Hwf)) as [_ Htw Ht Hh].
  fold g in Htw, Ht, Hh. repeat split.
  - eapply Forall_impl; [|exact Htw]. intros [c p] H. destruct p; cbn in *; auto. contradiction.
  - intros e sched'. apply grun_le.
  - intros H. destruct (reached_spec closing_code (word (g_sh g))) as [[L K]|[L K]]; [|exact L].
    rewrite K in Ht. destruct (term (g_sh g)); [cbn [tn] in Ht; lia|contradiction].
  - intros Hq Hw. unfold quiescent in Hq. rewrite (quiescent_no_setter _ _ Hq) in Ht.
    destruct (reached_spec closing_code (word (g_sh g))) as [[L K]|[L K]]; [lia|]. rewrite K in Ht.
    destruct (term (g_sh g)); [discriminate|cbn [tn] in Ht; lia].
  - intros H. rewrite H in Hh. destruct (reached_spec confirmed_code (word (g_sh g))) as [[L K]|[L K]]; [|exact L].
    rewrite K in Hh. cbn [hn] in Hh. lia.
Qed.

(* non-vacuity: a local close racing the peer's CONNECTION_CLOSE, the close's compare_exchange
   first, the draining call overtaking it before the error is stored: exactly the first error is kept *)
Example c17_error_once_nonvacuous :
  let g := grun (g_init [CClosing 5%N; CDraining 9%N]) [0; 1; 0; 1; 1; 0; 1]%nat in
  word (g_sh g) = 8%N /\ term (g_sh g) = Some 5%N /\ quiescent g = true.
Proof. vm_compute. repeat split; reflexivity. Qed.

(* F40 (repaired): every public state constant of state.rs (HANDSHAKE_CONFIRMED, CLOSING, DRAINING,
   CLOSED) has a row in the mapping! table, CLOSED among them, and update() of every public constant
   is total and a forward move: it never panics, and either returns None leaving the word alone, or
   returns the previous code, which is below *)
Theorem c17_public_consts :
  Forall (fun s => exists k, encode s = Some k) public_consts /\
  (exists s, closed_const = Some s /\ In s public_consts /\ encode s = Some closed_code).
Proof.
  split.
  - vm_compute. repeat constructor; eexists; reflexivity.
  - eexists. split; [reflexivity|]. split; [vm_compute; tauto|reflexivity].
Qed.

Theorem c17_update_public : forall s sh, In s public_consts ->
  exists k, encode s = Some k /\
  let r := run_to_end 8 (CUpdate s) PStart sh in
  fst r <> PPanic /\
  ((fst r = PDone None /\ snd r = sh /\ (k <= word sh)%N) \/
   (fst r = PDone (Some (word sh)) /\ (word sh < k)%N /\ word (snd r) = k)).
Proof.
  intros s sh H. destruct c17_public_consts as [F _]. rewrite Forall_forall in F.
  destruct (F s H) as [k E]. exists k. split; [exact E|]. cbv zeta. rewrite (update_run 5 s sh k E).
  unfold update_rejects. destruct (N.leb_spec k (word sh)); (split; [discriminate|]); [left|right]; auto.
Qed.

Theorem c17_update_total : forall s sh k, encode s = Some k ->
  fst (run_to_end 8 (CUpdate s) PStart sh) <> PPanic /\
  exists r, fst (run_to_end 8 (CUpdate s) PStart sh) = PDone r.
Proof.
  intros s sh k E. rewrite (update_run 5 s sh k E).
  destruct (update_rejects k (word sh)); cbn [fst]; (split; [discriminate|eauto]).
Qed.

(* [Clean m]: no component is poisoned yet.  [registered m]: every task number stored in a waker
   slot of a live component (the three slots of every sender in the output set, the read slot of
   every receiver in the input set, the two listener slots, the stream-id waiters of both
   directions, the parameter waiters, the datagram reader slot).
   After the fan-out of Components::enter_closing / enter_draining (repaired tree):
   every registered sleeper has a pending wake, *)
Theorem c17_release_wakes : forall e m t, Clean m -> c_fix23 m = true ->
  In t (registered m) -> In t (c_woken (conn_error e m)).
Proof. exact conn_error_woken. Qed.

(* no slot keeps a sleeper, and every component is poisoned with e *)
Theorem c17_release_poisons : forall e m, Clean m -> c_fix23 m = true ->
  registered (conn_error e m) = [] /\ Poisoned e (conn_error e m).
Proof. intros e m C F. split; [apply conn_error_cleared; assumption|apply conn_error_poisoned; assumption]. Qed.

(* in ANY poisoned state an application operation of any kind is never Pending; an error it reports
   is e; open / accept / datagram receive / parameters report exactly e; a write is never accepted;
   a stream read/flush/shutdown answers e or the half's own terminal result; the connection stays
   poisoned, no sender changes, no receive buffer grows, nothing is queued for sending *)
Theorem c17_release : forall e m t k, Poisoned e m ->
  let m' := fst (poll m t k) in let code := fst (snd (poll m t k)) in let val := snd (snd (poll m t k)) in
  code <> 0%Z /\ (code = 2%Z -> val = Z.of_N e) /\
  (match k with
   | KOpen _ | KAccept _ | KDgRecv | KPReady => code = 2%Z
   | KWrite _ _ => code <> 1%Z
   | _ => True
   end) /\
  Poisoned e m' /\ c_snd m' = c_snd m /\ total_rcvd m' = total_rcvd m /\
  c_dgout m' = c_dgout m /\ c_tasks m' = c_tasks m.
Proof. exact poisoned_poll. Qed.

(* nothing is emitted, no datagram is accepted in either direction, arriving stream data reaches no
   receive buffer and wakes nobody; a second, racing close is a no-op *)
Theorem c17_release_no_data : forall e m, Poisoned e m ->
  load m = (m, [0; 0; 0]%Z) /\
  (forall len, dgram_send m len = (m, [2%Z; Z.of_N e])) /\
  (forall len, dgram_in m len = (m, [2%Z; Z.of_N e])) /\
  (forall sid len fin, let m' := fst (peer_data m sid len fin) in
     Poisoned e m' /\ total_rcvd m' = total_rcvd m /\ c_snd m' = c_snd m /\ c_woken m' = c_woken m) /\
  (forall e2, conn_error e2 m = m).
Proof.
  intros e m H. split; [apply (poisoned_load e); exact H|].
  split; [intros; apply poisoned_dgram_send; exact H|].
  split; [intros; apply poisoned_dgram_in; exact H|].
  split; [intros sid len fin; exact (poisoned_arrives e m sid _ H (peer_data_arrives m sid len fin))|].
  intros; apply (conn_error_again e); exact H.
Qed.

(* the statement over whole histories (repaired tree): any configuration, ANY history of operations
   without a connection error, then the error e, then ANY further history of operations of any
   kind (a second, racing error included): every sleeper registered at that moment is woken, no slot
   keeps a sleeper, and at every later point the connection is poisoned with e — so c17_release and
   c17_release_no_data apply to every later operation.  ([c_fix23], the choice of the repaired
   on_conn_error, is a constant of the state: c17_flag_constant.) *)
Theorem c17_release_all : forall cfg m0 before e after,
  cm_init true cfg = Some m0 -> Forall (fun o => fst o <> 21%N /\ fst o <> 24%N) before ->
  let m := cm_exec m0 0 before in
  (forall t, In t (registered m) -> In t (c_woken (conn_error e m))) /\
  registered (conn_error e m) = [] /\
  forall idx, Poisoned e (cm_exec (conn_error e m) idx after).
Proof.
  intros cfg m0 before e after Hi Hb m. apply clean_release.
  - apply clean_cm_exec; [exact Hb|exact (p_c17_init_clean _ _ _ Hi)].
  - unfold m. rewrite fx_cm_exec. exact (fx_init _ _ _ Hi).
Qed.

(* the close racing a poll (stream operation 24; "error-free history" above excludes both the plain
   error 21 and this one).  Schedule at the granularity of lock-protected sections: a poll of open_bi /
   open_uni / accept_bi / accept_uni has entered its critical section (it holds the stream / listener
   guards and has found the connection healthy) when the connection error e begins; everything the
   fan-out does to the stream tables, the listener and the stream-id waiters happens under those
   guards, so it is serialised after the poll ([race] = the poll against the healthy state, then the
   whole fan-out).  Then: the operation answers what the poll answered; if that was Pending, the
   poll's own task is woken by the close (it cannot be left parked on a limit that nobody will raise);
   every sleeper registered before is woken; no slot keeps a sleeper; after any further history the
   connection is poisoned with e.  The harness forces this schedule on the real DataStreams with
   two threads, so a fan-out step moved outside the guards (it would run BEFORE the poll parks)
   shows as a parked task that is never completed. *)
Theorem c17_race_release : forall cfg m0 before e t a k idx after,
  cm_init true cfg = Some m0 -> Forall (fun o => fst o <> 21%N /\ fst o <> 24%N) before ->
  race_kind t a = Some k ->
  let m := cm_exec m0 0 before in
  let m1 := fst (start_task m idx k) in
  fst (race m idx e t a) = conn_error e m1 /\
  snd (race m idx e t a) = snd (start_task m idx k) /\
  (snd (start_task m idx k) = [0%Z; 0%Z] -> In idx (c_woken (conn_error e m1))) /\
  (forall x, In x (registered m1) -> In x (c_woken (conn_error e m1))) /\
  registered (conn_error e m1) = [] /\
  forall i, Poisoned e (cm_exec (conn_error e m1) i after).
Proof.
  intros cfg m0 before e t a k idx after Hi Hb HK m m1.
  assert (F : c_fix23 m = true) by (unfold m; rewrite fx_cm_exec; eapply fx_init; exact Hi).
  assert (C : Clean m) by (apply clean_cm_exec; [exact Hb|eapply p_c17_init_clean; exact Hi]).
  assert (C1 : Clean m1) by exact (evolves_errs None _ _ (start_task_evolves m idx k) C).
  assert (F1 : c_fix23 m1 = true) by (unfold m1; rewrite (evolves_fix23 _ _ (start_task_evolves m idx k)); exact F).
  rewrite race_eq, HK. split; [reflexivity|]. split; [reflexivity|]. split.
  - intros HP. apply conn_error_woken; [exact C1|exact F1|].
    unfold m1. unfold start_task in *. destruct (slot_busy m k); [cbn in HP; discriminate HP|].
    pose proof (pending_registered m idx k) as R.
    destruct (poll m idx k) as [mp [code val]]. cbn [fst snd] in *.
    inversion HP; subst code. exact (R eq_refl).
  - apply clean_release; assumption.
Qed.

(* non-vacuity: client, limit of one bidirectional stream used up, a second open_bi races the close:
   the poll parks on the stream limit (Pending) and the close completes it with the error *)
Example c17_race_release_nonvacuous :
  run_connerr [0; 0; 1; 1; 10]%Z [(0%N, []); (1%N, [0%Z]); (24%N, [7; 1; 0]%Z)] =
  [[1; -1; 0; -2; 0]; [1; 0; -1; 0; -2; 0]; [0; 0; -1; 0; -2; 1; 2; 2; 7]]%Z.
Proof. vm_compute. reflexivity. Qed.

(* Model/ConnEnd.v: operations of every kind pending on the client and on the server while the
   connection is ended by a local close (Components::enter_closing), by the peer's CONNECTION_CLOSE
   (Components::enter_draining) after the handshake, or by the server refusing the client at the
   ClientHello (enter_draining before the peer's transport parameters are known).  The REAL dquic
   endpoints are driven with the same histories every run and must answer as the model.
   Any configuration, ANY history, then an observation point: no operation is left pending on an
   endpoint whose terminated() has resolved (those pending when it resolved and those started later
   alike), and that endpoint stays terminated for ever after *)
Theorem c17_end_all : forall cfg ops ms t s k,
  let m := ce_exec (ce_init cfg) 0 ops in
  let m' := fst (advance m ms) in
  (In (t, (s, k)) (e_tasks m') -> dead_at m' s (e_now m') = false) /\
  (forall later idx, dead_at m' s (e_now m') = true ->
     dead_at (ce_exec m' idx later) s (e_now (ce_exec m' idx later)) = true).
Proof.
  intros cfg ops ms t s k m m'. split; [apply p_c17_end_no_pending|].
  intros later idx H. apply p_c17_end_forever. exact H.
Qed.

(* what an observation point reports: completions in task order, each Ok (1) or the terminating error
   (2); a completion on an endpoint that had terminated before the observation interval began is
   always the terminating error *)
Theorem c17_end_codes : forall a b l, e_term b = e_term a -> (e_now a <= e_now b)%N ->
  codes_ok a l (fst (sweep a b l)).
Proof.
  intros a b l HT HN. induction l as [|[t [s k]] r IH]; cbn [sweep]; [reflexivity|].
  assert (TL : term_le (e_term a) (e_term b)) by (rewrite HT; apply term_le_refl).
  destruct (sweep a b r) as [o p] eqn:E. cbn [fst] in IH.
  destruct (verdict a (e_now a) s k) eqn:VA; [|destruct (verdict b (e_now b) s k) eqn:VB]; cbn [fst codes_ok].
  - left. destruct (verdict_ok a a _ s k _ (term_le_refl _) (N.le_refl _) VA). auto.
  - left. destruct (verdict_ok a b _ s k _ TL HN VB). auto.
  - destruct o as [|x [|y o']]; try exact IH. right. exact IH.
Qed.

(* non-vacuity (and the seeded defect's scenario): the server refuses the client during the handshake
   with accept_bi, datagram_writer and open_bi pending on the client: all three complete with the error *)
Example c17_end_nonvacuous :
  run_connend [1%Z] [(1%N, [0; 3]%Z); (1%N, [0; 6]%Z); (1%N, [0; 1]%Z); (2%N, [1000%Z]); (1%N, [0; 3]%Z); (2%N, [1%Z])] =
  [[0]; [1]; [2]; [1000; 3; 0; 2; 1; 2; 2; 2; 1; 0]; [4]; [1001; 1; 4; 2; 1; 0]]%Z.
Proof. vm_compute. reflexivity. Qed.

(* no operation of any history writes the flag that selects which on_conn_error the model runs *)
Theorem c17_flag_constant : forall ops m idx, c_fix23 (cm_exec m idx ops) = c_fix23 m.
Proof. exact fx_cm_exec. Qed.

(* a poll that answers Pending leaves its task number in a waker slot of the component it waits on
   (one step of the registration invariant; the invariant over whole histories - every parked task
   is in a slot or in the woken list - is NOT proved, see the report) *)
Theorem c17_pending_registers : forall m t k,
  fst (snd (poll m t k)) = 0%Z -> In t (all_slots (fst (poll m t k))).
Proof. intros m t k H. exact (registered_all_slots _ t (pending_registered m t k H)). Qed.

(* F23 (tree as it stood, [c_fix23 = false]): a task parked on the stream limit is registered, is not
   woken by the connection error and stays parked; every OTHER registered sleeper is woken *)
Theorem c17_release_refuted :
  let m := f23_state false in
  Clean m /\ In 2%N (registered m) /\ (In 2%N (c_woken (conn_error 7%N m)) -> False) /\
  existsb (fun tk => (fst tk =? 2)%N) (c_tasks (fst (settle (conn_error 7%N m) 3%N))) = true.
Proof.
  cbv zeta. split; [apply f23_state_clean|].
  split; [vm_compute; auto|]. split; [vm_compute; intuition discriminate|vm_compute; reflexivity].
Qed.

Theorem c17_release_but_sid : forall e m t, Clean m ->
  In t (registered_but_sid m) -> In t (c_woken (conn_error e m)).
Proof. intros e m t C H. apply conn_error_wakes; auto. Qed.

Example c17_release_nonvacuous :
  let m := f23_state true in
  In 2%N (c_woken (conn_error 7%N m)) /\ (c_tasks (fst (settle (conn_error 7%N m) 3%N)) = []) /\
  (snd (settle (conn_error 7%N m) 3%N) = [-1; 1; 2; -2; 1; 2; 2; 7]%Z).
Proof. cbv zeta. split; [vm_compute; auto|]. split; vm_compute; reflexivity. Qed.

Local Open Scope Z_scope.

(* NOT BEFORE: a TimeOut answer implies that idle timeout is enabled, that the last effective
   payload (sent or received) is more than defer + max_idle old, and that no packet of any kind was
   received during the last max_idle *)
Theorem c17_idle_not_before : forall m d evs,
  let s := ev_exec (st_init m d) evs in
  let g := ghost_run (st_init m d) ghost_init evs in
  snd (health (s_cfg s) (s_tm s) (s_now s)) = HTimeout ->
  max_idle (s_cfg s) <> 0 /\
  (exists t0, g_last_eff g = Some t0 /\ d + max_idle (s_cfg s) < s_now s - t0) /\
  (forall tr, g_last_rcvd g = Some tr -> max_idle (s_cfg s) < s_now s - tr).
Proof.
  intros m d evs s g H.
  pose proof (inv_run d evs _ _ (inv_init m d)) as V. fold s g in V.
  apply health_timeout_inv in H. destruct H as (tb & IB & M0 & ML).
  destruct (i_idle _ _ _ V tb IB) as [A (t0 & B & C)].
  split; [exact M0|]. split.
  - exists t0. rewrite <- (i_eff _ _ _ V). split; [exact B|lia].
  - intros tr Hr. pose proof (i_rcvd _ _ _ V tb tr IB Hr). lia.
Qed.

(* [g_last_eff]: the last restart of the idle period in RFC 9000 10.1 terms - a received packet with
   effective payload, or the FIRST effective packet sent after a receive.
   Once a health check has seen that restart more than defer old, every health check later than
   max_idle after it answers TimeOut as long as nothing is received, WHATEVER we keep sending: once
   an effective packet has been sent since the last receive, retransmissions do not postpone it *)
Theorem c17_idle_after : forall m d pre q t0,
  let s := ev_exec (st_init m d) pre in
  last_eff (s_tm s) = Some t0 -> d < s_now s - t0 ->
  forallb quiet_ev q = true ->
  (sent_since (s_tm s) = true \/ forallb not_eff_send q = true) ->
  let s1 := fst (ev_step s EHealth) in
  let s2 := ev_exec s1 q in
  max_idle (s_cfg s2) <> 0 -> 0 <= max_idle (s_cfg s2) -> max_idle (s_cfg s2) < s_now s2 - s_now s ->
  snd (health (s_cfg s2) (s_tm s2) (s_now s2)) = HTimeout.
Proof. intros m d pre q t0 s LE Hd Hq Hs s1 s2 M0 _. exact (p_c17_idle_after m d pre q t0 LE Hd Hq Hs M0). Qed.

(* F65 regression: effective packets every 5 ms into a dead network, max_idle 20 ms: the rule before
   the repair (every send restarts the idle period) has still not timed out after 42 ms, the
   repaired rule has *)
Example c17_idle_retransmit_regression :
  let old := ev_exec_f65 (st_init 20000 0) f65_history in
  let new := ev_exec (st_init 20000 0) f65_history in
  s_now old = 42000 /\
  snd (health (s_cfg old) (s_tm old) (s_now old)) <> HTimeout /\
  snd (health (s_cfg new) (s_tm new) (s_now new)) = HTimeout.
Proof. vm_compute. repeat split; try reflexivity. discriminate. Qed.

Example c17_idle_nonvacuous :
  run_idle [100; 50] [(2%N, [2]); (1%N, [51]); (4%N, []); (1%N, [100]); (4%N, []); (1%N, [1]); (4%N, [])]
  = [[0]; [51]; [1]; [151]; [0]; [152]; [2]].
Proof. vm_compute. reflexivity. Qed.

Theorem c17_negotiate : forall c r, 0 <= max_idle c -> 0 <= r ->
  let m := max_idle (negotiate c r) in
  (max_idle c = 0 -> m = r) /\ (r = 0 -> m = max_idle c) /\
  (max_idle c <> 0 -> r <> 0 -> m = Z.min (max_idle c) r) /\ defer (negotiate c r) = defer c.
Proof. intros c r _ _. exact (p_c17_negotiate c r). Qed.

Print Assumptions c17_monotone.
Print Assumptions c17_order.
Print Assumptions c17_table.
Print Assumptions c17_error_once.
Print Assumptions c17_error_once_nonvacuous.
Print Assumptions c17_public_consts.
Print Assumptions c17_update_public.
Print Assumptions c17_update_total.
Print Assumptions c17_release_wakes.
Print Assumptions c17_release_poisons.
Print Assumptions c17_release.
Print Assumptions c17_release_no_data.
Print Assumptions c17_release_all.
Print Assumptions c17_race_release.
Print Assumptions c17_race_release_nonvacuous.
Print Assumptions c17_end_all.
Print Assumptions c17_end_codes.
Print Assumptions c17_end_nonvacuous.
Print Assumptions c17_flag_constant.
Print Assumptions c17_pending_registers.
Print Assumptions c17_release_refuted.
Print Assumptions c17_release_but_sid.
Print Assumptions c17_release_nonvacuous.
Print Assumptions c17_idle_not_before.
Print Assumptions c17_idle_after.
Print Assumptions c17_idle_retransmit_regression.
Print Assumptions c17_idle_nonvacuous.
Print Assumptions c17_negotiate.
