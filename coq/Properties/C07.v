(* C07 — packet numbers are never reused and always decode to the number sent.
   Only the property theorems live here: each follows in a few lines from the lemmas of
   Proofs/Pn.v, Proofs/SentJournal.v or Proofs/TxPn.v (the witnesses by evaluation where they
   stand), and its assumptions are printed for the audit. *)
From Coq Require Import List ZArith Bool Sorted Lia.
From GQ Require Import Model.Pn Model.SentJournal Model.TxPn Proofs.Pn Proofs.SentJournal Proofs.TxPn.
Import ListNotations.
Local Open Scope Z_scope.

(* Histories are lists of mutex-protected steps ([sev]): whole NewPacketGuard lives (started,
   then completed by build_with_time / build_trivial or abandoned) interleaved arbitrarily with
   the calls of SentRotateGuards (acknowledgements, loss, fast retransmit, largest-acked updates,
   resize).  [emitted_pns] lists the packet numbers of the guards that were built without a
   panic, i.e. of the packets handed to encrypt_and_protect_packet.  [ev_built_ok] is the
   discipline of qconnection/src/tx.rs: a packet that is built recorded a frame or
   record_trivial. *)
Theorem c07_unique : forall h, Forall ev_built_ok h -> StronglySorted Z.lt (emitted_pns sj_new [] h).
Proof. intros h Ok. apply (emitted_sorted h sj_new [] Ok). Qed.

(* the number a guard hands out is the next unused one, encoded against largest_acked *)
Theorem c07_pn_is_next : forall j now sc j' pn e c, new_packet j now sc = (j', Some (pn, e), c) ->
  pn = s_next j /\ encode pn (s_la j) = EncOk e.
Proof.
  intros j now sc j' pn e c. unfold new_packet.
  destruct (encode (s_next j) (s_la j)) as [e0| |] eqn:E; try discriminate.
  (* whatever the tests say, the guard hands out (s_next j, e0) *)
  unfold push_rec. destruct (np_mode_ sc);
    repeat match goal with |- context [if ?c then _ else _] => destruct c end; intros [= _ <- <- _]; auto.
Qed.

(* the discipline is needed: build_with_time on a guard that recorded nothing hands the same
   number to two packets *)
Theorem c07_unique_needs_discipline :
  let sc := mknp [] false NpBuildTime 10 10 in
  emitted_pns sj_new [] [EvNew 0 sc; EvNew 0 sc] = [0; 0].
Proof. vm_compute. reflexivity. Qed.

(* decode (what is read back from the wire) (receiver expectation) = pn *)
Theorem c07_decode : forall pn la exp,
  0 <= la < 2 ^ 62 -> pn - la < 2 ^ 31 -> la < exp <= pn ->
  exists p, encode pn la = EncOk p /\ decode (wire p) exp = DecOk pn.
Proof. intros. apply encode_decode_wire; lia. Qed.

(* the guard is wider: exp = la is fine too (nothing acknowledged yet:
   largest_acked starts at 0 and the receiver may expect 0) *)
Theorem c07_decode_wide : forall pn la exp,
  0 <= la < 2 ^ 62 -> pn - la < 2 ^ 31 -> la <= exp <= pn ->
  exists p, encode pn la = EncOk p /\ decode (wire p) exp = DecOk pn.
Proof. intros. apply encode_decode_wire; lia. Qed.

(* a delayed packet (receiver already beyond it by less than 2^15) still decodes *)
Theorem c07_decode_reordered : forall pn la exp,
  0 <= la <= pn -> pn - la < 2 ^ 31 -> 0 <= exp < 2 ^ 63 ->
  pn < exp -> exp - pn < 2 ^ 15 ->
  exists p, encode pn la = EncOk p /\ decode (wire p) exp = DecOk pn.
Proof. intros. apply encode_decode_wire; lia. Qed.

Theorem c07_encode_total : forall pn la,
  0 <= la <= pn -> pn - la < 2 ^ 31 ->
  encode pn la <> EncPanic /\ encode pn la <> EncOverflow /\
  exists p, encode pn la = EncOk p /\ 2 <= width p <= 4.
Proof.
  intros pn la Hla Hd.
  destruct (encode_spec pn la Hla Hd) as (p & Henc & _ & _ & _ & Hmin).
  rewrite Henc. split; [discriminate|split; [discriminate|]].
  exists p. split; [reflexivity|].
  destruct p; cbv [half bits_of width] in *; lia.
Qed.

(* the guard is exact: one more unacknowledged packet and encode panics *)
Theorem c07_encode_limit : forall la, 0 <= la < 2 ^ 62 -> encode (la + 2 ^ 31) la = EncPanic.
Proof.
  intros la Hla. unfold encode.
  rewrite (proj2 (Z.ltb_ge _ la)), (proj2 (Z.leb_gt U64 _)) by (unfold U64; lia).
  replace (la + 2 ^ 31 - la) with (2 ^ 31) by lia. reflexivity.
Qed.

(* full strength since the fix of F31 (`U24(pn as u32 & 0x00ff_ffff)`): the in-memory value
   returned by encode decodes to pn as well, and it is already its own wire form *)
Theorem c07_decode_direct : forall pn la exp,
  0 <= la < 2 ^ 62 -> pn - la < 2 ^ 31 -> la <= exp <= pn ->
  exists p, encode pn la = EncOk p /\ decode p exp = DecOk pn /\ wire p = p.
Proof. intros. apply encode_decode; lia. Qed.

(* regression witness of F31: a U24 with an unreduced payload (still constructible through the
   public enum) decodes differently from its wire form; encode no longer produces one *)
Theorem c07_decode_unreduced_u24 :
  decode (U24 67108865) 67108862 = DecOk 100663297 /\ decode (wire (U24 67108865)) 67108862 = DecOk 67108865
  /\ encode 67108865 67068865 = EncOk (U24 1).
Proof. vm_compute. repeat split. Qed.

(* The packet writers of qconnection/src/tx.rs (Model/TxPn.v, stream `txpn`).
   [tx_script] is what one life of tx::PacketWriter ([trivw] = false) or tx::TrivialPacketWriter
   ([trivw] = true) does to its NewPacketGuard, for every packet type, buffer size and list of
   frames offered through the Package impls.  The discipline that c07_unique takes as a hypothesis
   holds for both writers; a packet finished by TrivialPacketWriter always satisfies the two
   assertions of build_trivial. *)
Theorem c07_tx_discipline : forall trivw ty bufsz retran expire fr w sc,
  tx_script trivw ty bufsz retran expire fr w = Some sc ->
  disciplined sc /\
  (np_mode_ sc = NpBuildTrivial -> trivw = true /\ np_frames sc = [] /\ np_trivial sc = true) /\
  (trivw = true -> np_mode_ sc <> NpBuildTime).
Proof. exact p_c07_tx_discipline. Qed.

(* every interleaving of lives of the two writers and SentRotateGuard calls on one journal: the
   numbers of the packets that left either writer are strictly increasing — no hypothesis *)
Theorem c07_tx_unique : forall h, StronglySorted Z.lt (tx_emitted sj_new [] h).
Proof. intros h. apply c07_unique. exact (Forall_impl _ ev_ok_built (tx_lower_ok h _ _)). Qed.

(* the "sent pn" observation of stream txpn is such an emitted packet; its number is the journal's
   next one and the journal has booked it afterwards *)
Theorem c07_tx_life_sent : forall trivw pad j now ty bufsz retran expire fr j' pn rest,
  tx_life trivw pad j now ty bufsz retran expire fr = (Some j', 0 :: pn :: rest) ->
  exists sc, tx_sev j (TxWriter now trivw ty bufsz retran expire fr) = Some (EvNew now sc) /\
    is_built sc = true /\ pn = s_next j /\ s_next j' = pn + 1.
Proof.
  intros trivw pad j now ty bufsz retran expire fr j' pn rest. unfold tx_life. cbn [tx_sev].
  destruct (encode (s_next j) (s_la j)) as [en| |] eqn:E; try discriminate.
  destruct (tx_script trivw ty bufsz retran expire fr (width en)) as [sc|] eqn:S; [|discriminate].
  destruct (new_packet j now sc) as [[[jn|] [pe|]] c] eqn:N; try discriminate.
  destruct (p_c07_tx_discipline _ _ _ _ _ _ _ _ S) as (D & _).
  pose proof (proj1 (new_packet_spec _ _ _ _ _ _ N) (disciplined_built_ok _ D)) as Hc.
  destruct (new_packet_get _ _ _ _ _ _ N) as [Hn _]. rewrite Hc in Hn.
  intros H. exists sc. split; [reflexivity|].
  unfold is_built in *. destruct (np_mode_ sc) eqn:M.
  - destruct (tx_too_short pad ty bufsz fr (width en)); inversion H; subst. repeat split; auto.
  - destruct (tx_too_short pad ty bufsz fr (width en)); inversion H; subst. repeat split; auto.
  - destruct (tx_created ty bufsz); inversion H.
Qed.

(* non-vacuity: regular packet, punch packet, abandoned assembly (buffer too small), regular
   ack-only packet, two CONNECTION_CLOSE packets, an acknowledgement in between: 0,1,2,3,4 *)
Example c07_tx_nonvacuous :
  tx_emitted sj_new []
    [TxWriter 0 false 3 1200 100 300 [(1, 4096)];
     TxWriter 0 true 3 1200 0 0 [(5, 0)];
     TxWriter 1 false 3 20 100 300 [(1, 4097)];
     TxRotate (EvLargest 1); TxRotate (EvAcked 0); TxRotate (EvResize 1);
     TxWriter 2 false 3 1200 100 300 [(6, 0)];
     TxWriter 3 true 3 1200 0 0 [(4, 0)];
     TxWriter 3 true 3 1200 0 0 [(4, 0)]] = [0; 1; 2; 3; 4].
Proof. vm_compute. reflexivity. Qed.

(* non-vacuity: a history with a multi-frame packet, a trivial packet, abandoned guards,
   out-of-order acknowledgements, loss and a resize emits 0,1,2,3; and concrete boundary triples *)
Example c07_nonvacuous :
  let h := [EvNew 0 (mknp [11; 12] false NpBuildTime 5 50);
            EvNew 0 (mknp [] false NpAbandon 5 50);
            EvNew 1 (mknp [] true NpBuildTrivial 5 50);
            EvNew 2 (mknp [] true NpAbandon 5 50);
            EvLargest 1; EvAcked 1; EvLost 0; EvResize 3;
            EvNew 3 (mknp [13] true NpBuildTime 5 50);
            EvAcked 0; EvFast 100; EvResize 100;
            EvNew 4 (mknp [] true NpBuildTime 5 50)] in
  Forall ev_built_ok h /\ emitted_pns sj_new [] h = [0; 1; 2; 3] /\
  encode 32768 0 = EncOk (U24 32768) /\ decode (wire (U24 32768)) 1 = DecOk 32768 /\
  encode (2 ^ 62 - 1) (2 ^ 62 - 2 ^ 31) = EncOk (U32 4294967295) /\
  decode (U32 4294967295) (2 ^ 62 - 2 ^ 31 + 1) = DecOk (2 ^ 62 - 1).
Proof.
  cbv zeta. split; [|vm_compute; repeat split; reflexivity].
  repeat (apply Forall_cons; [try exact I|]); try apply Forall_nil;
    intros M; first [discriminate M | left; reflexivity | right; discriminate].
Qed.

Print Assumptions c07_unique.
Print Assumptions c07_pn_is_next.
Print Assumptions c07_unique_needs_discipline.
Print Assumptions c07_decode.
Print Assumptions c07_decode_wide.
Print Assumptions c07_decode_reordered.
Print Assumptions c07_encode_total.
Print Assumptions c07_encode_limit.
Print Assumptions c07_decode_direct.
Print Assumptions c07_decode_unreduced_u24.
Print Assumptions c07_tx_discipline.
Print Assumptions c07_tx_unique.
Print Assumptions c07_tx_life_sent.
Print Assumptions c07_tx_nonvacuous.
Print Assumptions c07_nonvacuous.
