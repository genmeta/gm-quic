(* C18 — peer transport parameters are validated and bound to on-wire connection IDs.
   Only the property theorems live here; the lemmas they rest on are in Proofs/ParamsState.v and Proofs/Packets.v. *)
From Coq Require Import List ZArith NArith Bool.
From GQ Require Import Lib.Wire Model.Varint Model.Frames Model.Params Model.ParamsState Proofs.ParamsState.
Import ListNotations.
Local Open Scope Z_scope.

(* in BOTH arrival orders of the TLS extension and the first Initial packet the outcome is the same;
   the connection is ready iff the blob parses and the declared connection ids equal the observed
   ones, and otherwise a transport-parameter error is raised (never a silent pending state) *)
Theorem c18_ready_iff : forall r idle origin blob cid,
  let s0 := ps_init r idle origin in
  let a := ps_run s0 [PsParams blob; PsScid cid] in
  let b := ps_run s0 [PsScid cid; PsParams blob] in
  outcome a = outcome b /\
  (ps_ready a = true <-> accept r origin blob cid) /\
  (ps_failed a = true <-> ~ accept r origin blob cid).
Proof.
  intros r idle origin blob cid. cbv zeta. destruct (two_orders r idle origin blob cid) as [H1 H2]. split; [congruence|].
  clear H2. rewrite <- accepts_accept. set (a := ps_run _ _) in *. clearbody a.
  unfold outcome in H1. injection H1 as -> ->.
  destruct (accepts r origin blob cid); cbn [negb]; split; split; congruence.
Qed.

Theorem c18_not_ready_early : forall r idle origin o, ps_ready (ps_step (ps_init r idle origin) o) = false.
Proof.
  intros r idle origin o. unfold ps_init. destruct o as [blob|cid]; unfold ps_step;
    cbn [ps_failed ps_role ps_local_idle ps_origin ps_remote ps_scid ps_ready]; [|reflexivity].
  destruct (parse_params (peer_of r) blob); reflexivity.
Qed.

(* what "the blob parses" means: every id legal for the sender's role, typed as the table says,
   inside its bound, and the mandatory ids present *)
Theorem c18_parse_valid : forall r buf m, parse_params r buf = PaOk m ->
  map_valid r m /\ (forall id, In id (required_of r) -> exists v, pm_get m id = Some v).
Proof.
  intros r buf m.
  unfold parse_params. destruct (parse_loop (S (length buf)) r [] buf) as [m0| |st] eqn:E; try discriminate.
  destruct (forallb _ (required_of r)) eqn:Ef; [|discriminate]. intro H. injection H as <-.
  split; [exact (parse_loop_valid _ _ _ _ _ (map_valid_nil r) E)|].
  intros id Hin. rewrite forallb_forall in Ef. specialize (Ef _ Hin).
  destruct (pm_get m0 id) as [v|]; [eauto|discriminate].
Qed.

(* the ranges in the table regenerated from the Rust source are exactly RFC 9000 §18.2 *)
Theorem c18_bounds_rfc : forall row, In row param_table -> p_bound row = rfc_bound (p_id row).
Proof.
  assert (H : forallb (fun row => match p_bound row, rfc_bound (p_id row) with
                                  | Some (a, b), Some (c, d) => (a =? c) && (b =? d)
                                  | None, None => true
                                  | _, _ => false end) param_table = true) by (vm_compute; reflexivity).
  rewrite forallb_forall in H. intros row Hin. specialize (H _ Hin).
  destruct (p_bound row) as [[a b]|], (rfc_bound (p_id row)) as [[c d]|]; try discriminate; [|reflexivity].
  apply andb_true_iff in H. destruct H as [H1 H2]. apply Z.eqb_eq in H1. apply Z.eqb_eq in H2. now subst.
Qed.

(* every parameter failure is the TRANSPORT_PARAMETER_ERROR connection error *)
Theorem c18_error_kind : param_error_kind = EK_TRANSPORT_PARAMETER.
Proof. reflexivity. Qed.

(* effective idle timeout: the smaller non-zero value; "no timeout" only when both are zero *)
Theorem c18_idle : forall s m rem v, ps_ready s = true -> ps_remote s = Some m ->
  num_of (pm_get_d m PID_MAX_IDLE_TIMEOUT) = Some rem -> 0 <= rem -> 0 <= ps_local_idle s ->
  negotiated_idle s = Some v ->
  (ps_local_idle s = 0 /\ rem = 0 -> v = -1) /\
  (ps_local_idle s = 0 /\ 0 < rem -> v = rem) /\
  (0 < ps_local_idle s /\ rem = 0 -> v = ps_local_idle s) /\
  (0 < ps_local_idle s /\ 0 < rem -> v = Z.min (ps_local_idle s) rem).
Proof. intros s m rem v Hr Hm Hn _ _. exact (p_c18_idle s m rem v Hr Hm Hn). Qed.

(* remembered parameters are honoured for 0-RTT iff none of the eight limits exceeds the new one;
   the `unreachable!` arm of the check cannot be hit for parsed parameter sets *)
Theorem c18_0rtt : forall old new b, is_0rtt_accepted old new = Some b ->
  (b = true <-> forall id, In id zero_rtt_ids ->
     exists o n, num_of (pm_get_d old id) = Some o /\ num_of (pm_get_d new id) = Some n /\ o <= n).
Proof.
  intros old new b.
  unfold is_0rtt_accepted. generalize zero_rtt_ids as ids. intro ids. revert b.
  induction ids as [|id t IH]; intros b H; cbn [fold_right] in H.
  - injection H as <-. split; [intros _ id []|reflexivity].
  - destruct (fold_right _ (Some true) t) as [b0|] eqn:Ef; [|discriminate].
    destruct (num_of (pm_get_d old id)) as [o|] eqn:Eo; [|discriminate].
    destruct (num_of (pm_get_d new id)) as [n|] eqn:En; [|discriminate].
    injection H as <-. specialize (IH b0 eq_refl). rewrite andb_true_iff, Z.leb_le. split.
    + intros [Hb Hle] id' [<-|Hin]; [exists o, n; auto|]. apply IH; assumption.
    + intro Hall. split.
      * apply IH. intros id' Hin. apply Hall. now right.
      * destruct (Hall id (or_introl eq_refl)) as (o' & n' & H1 & H2 & H3). congruence.
Qed.

Theorem c18_0rtt_total : forall old new, map_valid Server old -> map_valid Server new ->
  exists b, is_0rtt_accepted old new = Some b.
Proof.
  intros old new Ho Hn.
  assert (F : Forall (fun id => (exists o, num_of (pm_get_d old id) = Some o) /\
                                exists n, num_of (pm_get_d new id) = Some n) zero_rtt_ids)
    by (apply Forall_forall; intros id Hin; split; eapply num_of_valid; eauto).
  unfold is_0rtt_accepted. induction F as [|id t [[o Eo] [n En]] _ [b IH]]; cbn [fold_right]; [eauto|].
  rewrite IH, Eo, En. eauto.
Qed.

(* non-vacuity: a server blob (odcid 01 02, iscid 09) accepted by a client in both orders; a blob
   with initial_max_streams_bidi = 2^60 rejected *)
Example c18_nonvacuous :
  let good := [0; 2; 1; 2; 15; 1; 9; 8; 2; 64; 100] in
  let bad := [0; 2; 1; 2; 15; 1; 9; 8; 8; 208; 0; 0; 0; 0; 0; 0; 0] in
  outcome (ps_run (ps_init Client 30000 [1; 2]) [PsParams good; PsScid [9]]) = (true, false) /\
  outcome (ps_run (ps_init Client 30000 [1; 2]) [PsScid [9]; PsParams good]) = (true, false) /\
  outcome (ps_run (ps_init Client 30000 [1; 2]) [PsScid [7]; PsParams good]) = (false, true) /\
  outcome (ps_run (ps_init Client 30000 [1; 2]) [PsParams bad; PsScid [9]]) = (false, true).
Proof. vm_compute. repeat split. Qed.

Print Assumptions c18_ready_iff.
Print Assumptions c18_not_ready_early.
Print Assumptions c18_parse_valid.
Print Assumptions c18_bounds_rfc.
Print Assumptions c18_error_kind.
Print Assumptions c18_idle.
Print Assumptions c18_0rtt.
Print Assumptions c18_0rtt_total.
Print Assumptions c18_nonvacuous.
