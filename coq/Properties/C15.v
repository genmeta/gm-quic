(* C15 — an unvalidated address never receives more than 3x what it sent.
   Only the property theorems live here (each a few lines from the lemmas of Proofs/Burst.v, AntiAmp.v, AntiAmpRace.v).
   The model is the REPAIRED AntiAmplifier (on_sent saturates, finding F19w fixed).

   Status: c15_no_underflow, c15_no_panic, c15_resume, c15_ratio_interleaved hold in full strength.  c15_ratio is
   REFUTED on the faithful model at the burst level (finding F19, open: multi-segment bursts, Initial padding, reserved
   forward header; witnesses below, replayed by corpus/C15/aa/f19_*.case) and proved for every history without an
   operation of `known_class`. *)
From Coq Require Import List NArith ZArith Bool Lia.
From GQ Require Import Lib.Base Generated.Sources Model.AntiAmp Model.Burst Proofs.Burst Proofs.AntiAmp Proofs.AntiAmpRace.
Import ListNotations.
Local Open Scope N_scope.

(* every prefix of every history without an op of the known class (multi-segment burst, reserved forward
   header, Initial-bearing datagram with credit below the buffer, over-debit): before grant, bytes handed to
   IO <= 3 x bytes received *)
Theorem c15_ratio : forall minpkt ops,
  clean minpkt g0 ops ->
  Forall (fun gw : gst * bool => st (ga (fst gw)) <> 1 -> gHv (fst gw) <= 3 * gRv (fst gw)) (gtrace minpkt g0 ops).
Proof.
  intros minpkt ops Hc. eapply Forall_impl; [| exact (p_c15_clean minpkt ops g0 Inv_g0 Hc)].
  intros gw (_ & _ & H & _). exact H.
Qed.

(* on those histories no debit saturates and the counter is exactly 3R - H *)
Theorem c15_credit_exact : forall minpkt ops,
  clean minpkt g0 ops ->
  Forall (fun gw : gst * bool => snd gw = false /\
            (st (ga (fst gw)) = 0 -> credit (ga (fst gw)) = 3 * gRv (fst gw) - gHv (fst gw)))
         (gtrace minpkt g0 ops).
Proof.
  intros minpkt ops Hc. eapply Forall_impl; [| exact (p_c15_clean minpkt ops g0 Inv_g0 Hc)].
  intros gw (_ & Hw & _ & H). split; assumption.
Qed.

(* FULL strength - EVERY history (multi-segment bursts, padded Initials, over-debits included): the credit of an
   unvalidated path is at most 3 x the bytes received so far; it cannot underflow into an effectively unlimited
   allowance.  (Hypothesis: fewer than 2^64/3 bytes are received, so that the counter itself cannot overflow.) *)
Theorem c15_no_underflow : forall minpkt ops,
  3 * fold_right N.add 0 (map rcvd1 ops) < W ->
  Forall (fun gw : gst * bool => st (ga (fst gw)) = 0 -> credit (ga (fst gw)) <= 3 * gRv (fst gw))
         (gtrace minpkt g0 ops).
Proof.
  intros minpkt ops H. apply p_c15_no_underflow; [intros _; apply N.le_0_l | exact H].
Qed.

(* F19, burst level: 100 bytes received; a burst of two segments hands 600 bytes to IO (the debit saturates: the
   credit is 0 afterwards) *)
Theorem c15_ratio_refuted :
  exists ops, let '(g, over) := last (gtrace 40 g0 ops) (g0, false) in
    st (ga g) = 0 /\ 3 * gRv g < gHv g /\ over = true /\ credit (ga g) = 0.
Proof.
  exists [ARcvd 100; ABurst 1200 0 [mkseg 100000 0 1200; mkseg 100000 0 1200]].
  vm_compute. repeat split; reflexivity.
Qed.

(* F19, padding: an Initial packet of 200 bytes (within the credit of 300) is padded to the 1200-byte buffer *)
Theorem c15_ratio_refuted_initial :
  exists ops, let '(g, over) := last (gtrace 40 g0 ops) (g0, false) in
    st (ga g) = 0 /\ gHv g = 1200 /\ gRv g = 100 /\ over = true.
Proof.
  exists [ARcvd 100; ABurst 1200 0 [mkseg 100000 200 0]].
  vm_compute. repeat split; reflexivity.
Qed.

(* regression of F19w: on_rcvd(100); on_sent(400) leaves a balance of 0 (Err(CREDIT)), not 2^64 - 100 *)
Example c15_over_debit_saturates :
  snd (balance (on_sent (on_rcvd aa0 100) 400)) = BErr /\
  snd (balance (on_rcvd (on_sent (on_rcvd aa0 100) 400) 100)) = BSome 300.
Proof. vm_compute. split; reflexivity. Qed.

(* balance()'s `unreachable!()` is unreachable, in every history *)
Theorem c15_no_panic : forall minpkt ops,
  Forall (fun gw : gst * bool => st (ga (fst gw)) <= 2 /\ snd (balance (ga (fst gw))) <> BPanic) (gtrace minpkt g0 ops).
Proof. intros. apply p_c15_no_panic. exact (proj1 Inv_g0). Qed.

(* for EVERY interleaving of the atomic steps: a sender parked in wait_for(CREDIT) while there is credit (or
   the path was granted / aborted) and no wake_by is still in flight has been woken, and its next step is enabled *)
Theorem c15_resume : forall y w0,
  sreach y -> spcv y = SParked w0 -> ~ In NWake (pend y) ->
  credit (sa y) <> 0 \/ st (sa y) <> 0 ->
  w0 < wakes (sa y) /\ sender_step y 0 <> None.
Proof.
  intros y w0 Hr Hp Hn Hc. pose proof (RInv_reach y Hr) as HI. unfold RInv in HI. rewrite Hp in HI.
  assert (Hlt : w0 < wakes (sa y)).
  { destruct HI as [[H _] | (_ & _ & _ & C4)]; [exact H | exfalso; exact (Hn (C4 Hc))]. }
  split; [exact Hlt |]. unfold sender_step. rewrite Hp.
  destruct (N.ltb_spec w0 (wakes (sa y))); [discriminate | lia].
Qed.

(* for EVERY interleaving of the atomic steps (arrivals, grant, abort racing with the sender's loads, its
   single-segment in-budget send and its debit): while the path is unvalidated, bytes handed to IO <= 3 x bytes
   received, and the credit is at most 3 x bytes received *)
Theorem c15_ratio_interleaved : forall y,
  sreach y -> 3 * gR y < W -> st (sa y) = 0 ->
  gH y <= 3 * gR y /\ credit (sa y) <= 3 * gR y.
Proof. intros y Hr HR H0. destruct (CI_reach y Hr HR H0) as (P1 & P2 & P3 & P4). lia. Qed.

(* one datagram = any number of coalesced packets written through ONE Constraints value, in flight or not (an ACK-only
   packet is charged against the credit like any other): it stays within the credit its assembler read, unless it
   carries an Initial packet and is padded to the whole buffer (class F19) *)
Theorem c15_segment_within_credit : forall minpkt c buf r n,
  load_segment minpkt (BSome c) buf r = SegOk n -> (sg_wi r = 0 \/ buf <= c) -> n <= c.
Proof. exact load_segment_le. Qed.

(* 50 bytes received; an ACK-only Handshake packet of 45 bytes followed by a 1-RTT packet: the datagram is cut at 150 *)
Example c15_segment_nonvacuous :
  load_segment 40 (BSome 150) 1200 (mksegp 100000 (mkpk 0 true) [mkpk 0 true; mkpk 45 false; mkpk 1200 true]) = SegOk 150.
Proof. vm_compute. reflexivity. Qed.

(* two calls racing on two threads, one atomic operation at a time (stream op RACE, run on the real methods through
   the instrumented atomics): every race finishes with both calls returned ... *)
Theorem c15_race_finishes : forall a ca cb sched,
  let '(_, pa, pb, _, _) := race_calls a ca cb sched in pdone pa = true /\ pdone pb = true.
Proof.
  intros a ca cb sched.
  assert (H : forall x p, let '(_, _) := mstep x p in True) by (intros x p; destruct (mstep x p); exact I).
  pose proof (race_calls_inv (fun _ _ _ => True) (fun x pa _ _ _ => H x pa) (fun x _ pb _ _ => H x pb) a ca cb sched I) as R.
  destruct (race_calls a ca cb sched) as [[[[a' pa] pb] na] nb]. apply R.
Qed.

(* ... a call running alone is the composite operation of the sequential histories above ... *)
Theorem c15_call_alone : forall a c,
  fst (mrun_alone a c) = composite a c /\ pdone (snd (mrun_alone a c)) = true /\
  (c = CBalance -> snd (mrun_alone a c) = PDone (RBal (snd (balance a)))).
Proof.
  intros a c. destruct a as [s cr cb rg wk].
  destruct c as [n | | n | | | ]; unfold mrun_alone, composite, on_rcvd, on_sent, grant, abort, balance, balance_of;
    cbn [mstart mstep st credit fst snd pdone].
  1,3-5: destruct (s =? 0); cbn [mstep fst snd pdone]; repeat split; try reflexivity; discriminate.
  - (* balance: the second load of `state` sees what the first saw *)
    destruct (s =? 1); [cbn [mstep fst snd pdone]; repeat split; reflexivity |].
    destruct (s =? 2); [cbn [mstep fst snd pdone]; repeat split; reflexivity |].
    destruct (s =? 0) eqn:E0; [| cbn [mstep fst snd pdone]; repeat split; reflexivity].
    cbn [mstep st credit]. destruct (cr =? 0); [| cbn [mstep fst snd pdone]; repeat split; reflexivity].
    cbn [mstep st credit]. rewrite E0. cbn [fst snd pdone]. repeat split; reflexivity.
  - repeat split; try reflexivity; discriminate.
Qed.

(* ... and for EVERY schedule an arrival racing with a debit is one of the two sequential orders: neither the deposit
   nor the debit is lost (on_rcvd and on_sent are each ONE read-modify-write of the credit) *)
Theorem c15_race_rcvd_sent_linearizable : forall a n m sched,
  let '(a', _, _, _, _) := race_calls a (CRcvd n) (CSent m) sched in
  a' = on_sent (on_rcvd a n) m \/ a' = on_rcvd (on_sent a m) n.
Proof. intros a n m sched. exact (race_credit_calls a (CRcvd n) (CSent m) sched I I). Qed.

(* the conservation law that a lost update (on_rcvd as a separate load and store) would break *)
Theorem c15_race_conserves : forall a n m sched,
  st a = 0 -> m <= credit a -> credit a + 3 * n < W ->
  let '(a', _, _, _, _) := race_calls a (CRcvd n) (CSent m) sched in
  st a' = 0 /\ credit a' = credit a + 3 * n - m.
Proof.
  intros a n m sched H0 Hm Hw. pose proof (race_credit_calls a (CRcvd n) (CSent m) sched I I) as H. cbn [composite] in H.
  destruct (race_calls a (CRcvd n) (CSent m) sched) as [[[[a' pa] pb] na] nb].
  destruct H as [-> | ->].
  - rewrite on_sent_st, on_rcvd_st, on_sent_credit, on_rcvd_credit by (rewrite ?on_rcvd_st; assumption).
    split; [exact H0 | reflexivity].
  - pose proof (on_sent_credit a m H0) as Hc.
    rewrite on_rcvd_st, on_sent_st, on_rcvd_credit by (rewrite ?on_sent_st, ?Hc; (assumption || lia)).
    rewrite Hc. split; [exact H0 | lia].
Qed.

(* the schedule that loses the debit when the deposit is a separate load and store: here the debit lands in between *)
Example c15_race_nonvacuous :
  let '(a', pa, pb, na, nb) := race_calls (on_rcvd aa0 1200) (CRcvd 50) (CSent 3600) [false; true; true; false] in
  credit a' = 150 /\ na = 2 /\ nb = 2.
Proof. vm_compute. repeat split; reflexivity. Qed.

(* a pending fetch_add always leads to a wake_by: arrivals that are still in flight cannot be forgotten *)
Theorem c15_resume_progress : forall y i n,
  nth_error (pend y) i = Some (NAdd n) ->
  exists y', sstep y (LNotif i) = Some y' /\ In NWake (pend y').
Proof.
  intros y i n E. cbn [sstep]. rewrite E. eexists. split; [reflexivity |].
  cbn [pend]. apply in_elt.
Qed.

(* the shape of the real send path the model's BURST relies on, re-extracted from burst.rs / path.rs / aa.rs
   on every run: one balance() per segment and no debit inside burst.rs; Initial-bearing datagrams padded to the
   whole buffer; one on_sent(sum) per burst; on_sent is a saturating fetch_update *)
Theorem c15_glue_shape :
  burst_shape_balance_per_segment = true /\ burst_shape_pad_initial_to_full = true /\
  burst_shape_debit_sum_after_burst = true /\ aa_shape_on_sent_saturating = true.
Proof. repeat split; reflexivity. Qed.

(* non-vacuity: a clean history with arrivals, an Initial-bearing burst with enough credit, a burst cut by the
   credit, exhaustion, resumption, a grant *)
Example c15_nonvacuous :
  let ops := [ARcvd 1200; ABurst 1200 0 [mkseg 100000 300 0]; ABurst 1200 0 [mkseg 100000 0 1200];
              ABurst 1452 0 [mkseg 100000 0 1452]; ABurst 1200 0 [mkseg 100000 0 1200]; APollWait;
              ARcvd 50; APollWait; ABurst 1200 0 [mkseg 100 0 1200]; AOnSent 50; AGrant; ABurst 1200 0 [mkseg 100000 0 1200; mkseg 100000 0 1200]] in
  clean 40 g0 ops /\
  map (fun gw : gst * bool => (gRv (fst gw), gHv (fst gw))) (gtrace 40 g0 ops) =
    [(1200, 0); (1200, 1200); (1200, 2400); (1200, 3600); (1200, 3600); (1200, 3600);
     (1250, 3600); (1250, 3600); (1250, 3700); (1250, 3750); (1250, 3750); (1250, 6150)].
Proof. vm_compute. repeat split; try reflexivity; try discriminate. Qed.

Print Assumptions c15_ratio.
Print Assumptions c15_credit_exact.
Print Assumptions c15_no_underflow.
Print Assumptions c15_ratio_refuted.
Print Assumptions c15_ratio_refuted_initial.
Print Assumptions c15_over_debit_saturates.
Print Assumptions c15_no_panic.
Print Assumptions c15_resume.
Print Assumptions c15_ratio_interleaved.
Print Assumptions c15_resume_progress.
Print Assumptions c15_glue_shape.
Print Assumptions c15_nonvacuous.
Print Assumptions c15_segment_within_credit.
Print Assumptions c15_segment_nonvacuous.
Print Assumptions c15_race_finishes.
Print Assumptions c15_call_alone.
Print Assumptions c15_race_rcvd_sent_linearizable.
Print Assumptions c15_race_conserves.
Print Assumptions c15_race_nonvacuous.
