(* C09 — the send buffer keeps every unacknowledged byte and offers it for resending.
   Only the property theorems live here: each follows in a few lines (ten at most) from the
   lemmas of Proofs/SendBuf.v (which are stated per state, for every state with the invariant), the
   refutation witness and the regression histories are evaluated under their statements, and the
   assumptions of each are printed for the audit.

   [reach strict c cap ops b outs] : running [ops] on SendBuf::with_capacity(cap) (content [c]) hits no
   failed assertion and ends in state [b] with results [outs]; [reach false] has no other side condition
   (it is exactly "sb_execs ends in a live state", see c09_pick_nonempty); when [strict],
   forget_sent_state is only used while no byte has been released (class of finding F28 otherwise).
   Empty ranges (FIN-only frames) given to ack / loss are ignored since the fix of finding F29.
   Since the repair of finding F70 SendBuf::on_data_acked / may_loss_data act on the sent part
   [s, min e sent()) of the reported range only: reports about frames of a rejected 0-RTT packet (whose
   bytes are Pending again after forget_sent_state) no longer reach BufMap's `covered Pending parts`
   assertions (c09_report_total, c09_report_ack, c09_report_loss, c09_forget_then_reports).
   [colour_at m i] is the abstraction function. *)
From Coq Require Import List NArith ZArith Lia.
From GQ Require Import Lib.Base Model.SendBuf Proofs.SendBuf.
Import ListNotations.
Local Open Scope N_scope.

Theorem c09_ref_ack : forall m s e m', WF m -> s < e -> ack_rcvd m s e = Some m' ->
  WF m' /\ size m' = size m /\ e <= size m /\
  (forall i, s <= i < e -> colour_at m i <> Some Pending) /\
  (forall i, colour_at m' i = if in_range s e i then Some Recved else colour_at m i).
Proof.
  intros m s e m' Hwf Hse E. pose proof (ack_rcvd_char m s e Hwf Hse) as H. rewrite E in H.
  exact (post_at _ (fun _ => Some Recved) _ _ _ _ H (fun _ => eq_refl)).
Qed.

Theorem c09_ref_loss : forall m s e m', WF m -> s < e -> may_loss m s e = Some m' ->
  WF m' /\ size m' = size m /\ e <= size m /\
  (forall i, s <= i < e -> colour_at m i <> Some Pending) /\
  (forall i, colour_at m' i = if in_range s e i then option_map lossf (colour_at m i) else colour_at m i).
Proof.
  intros m s e m' Hwf Hse E. pose proof (may_loss_char m s e Hwf Hse) as H. rewrite E in H.
  exact (post_at _ (option_map lossf) _ _ _ _ H (fun _ => eq_refl)).
Qed.

Theorem c09_ref_pick : forall m pred flow win m' s e fr,
  WF m -> size m <= win -> (forall o a, pred o = Some a -> 1 <= a) ->
  pick m pred flow win = PickOk m' s e fr ->
  WF m' /\ size m' = size m /\ s < e /\ e <= size m /\
  (exists a, pred s = Some a /\ e - s <= a) /\
  (exists col, (col = Lost \/ (col = Pending /\ flow <> 0 /\ e - s <= flow)) /\ fr = is_pending col /\
               forall i, s <= i < e -> colour_at m i = Some col) /\
  (forall i, i < s -> colour_at m i = Some Flighting \/ colour_at m i = Some Recved) /\
  (forall i, colour_at m' i = if in_range s e i then Some Flighting else colour_at m i).
Proof.
  intros m pred flow win m' s e fr Hwf Hwin Hp E. destruct (pick_spec _ _ _ _ _ _ _ _ Hwf Hwin Hp E) as (a & Ha & Hpost).
  exact (pick_post_at _ _ _ _ _ _ _ _ Ha Hpost).
Qed.

Theorem c09_ref_extend_to : forall m pos m', WF m -> extend_to m pos = Some m' ->
  WF m' /\ size m <= pos /\ size m' = pos /\
  (forall i, colour_at m' i = if i <? size m then colour_at m i else if i <? pos then Some Pending else None).
Proof.
  intros m pos m' Hwf E. destruct (extend_to_spec _ _ _ Hwf E) as (_ & X1 & X2 & X3 & X4 & X5).
  split; [exact X3|]. split; [exact X1|]. split; [exact X2|].
  intros i. rewrite !colour_at_colr, X2. destruct (N.ltb_spec i (size m)).
  - destruct (N.ltb_spec i pos); [|lia]. now rewrite X4.
  - destruct (N.ltb_spec i pos); [|reflexivity]. rewrite X5 by lia. reflexivity.
Qed.

Theorem c09_ref_shift : forall m m2 pos, WF m -> shift m = (m2, pos) ->
  WF m2 /\ size m2 = size m /\ (forall i, colour_at m2 i = colour_at m i) /\
  pos <= size m /\ (forall i, i < pos -> colour_at m i = Some Recved) /\
  (pos < size m -> colour_at m pos <> Some Recved).
Proof.
  intros m m2 pos Hwf E. destruct (shift_spec _ _ _ Hwf E) as (H1 & H2 & H3 & HL).
  assert (Hc : forall i, colour_at m2 i = colour_at m i) by (intro i; rewrite !colour_at_colr, H1, H3; reflexivity).
  destruct (lead_at _ _ HL) as (L1 & L2 & L3). rewrite H1 in L1, L3.
  split; [exact H2|]. split; [exact H1|]. split; [exact Hc|]. split; [exact L1|].
  split; [intros i Hi|intros Hp]; rewrite <- Hc; auto.
Qed.

Theorem c09_ref_resend : forall m, WF m ->
  WF (resend_flighting m) /\ size (resend_flighting m) = size m /\
  (forall i, colour_at (resend_flighting m) i = option_map lossf (colour_at m i)).
Proof.
  intros m Hwf. destruct (resend_spec _ Hwf) as (A1 & A2 & A3).
  split; [exact A2|]. split; [exact A1|]. intro i. rewrite !colour_at_colr, A1, A3.
  destruct (i <? size m); reflexivity.
Qed.

(* the model's PV outcome of ack / loss arises only when a debug assertion of the Rust fails *)
Theorem c09_ref_ack_total : forall m s e, WF m -> s < e -> e <= size m ->
  (forall i, s <= i < e -> colour_at m i <> Some Pending) -> ack_rcvd m s e <> None.
Proof. intros m s e Hwf Hse. exact (char_post_total _ _ _ _ _ _ (ack_rcvd_char m s e Hwf Hse)). Qed.

Theorem c09_ref_loss_total : forall m s e, WF m -> s < e -> e <= size m ->
  (forall i, s <= i < e -> colour_at m i <> Some Pending) -> may_loss m s e <> None.
Proof. intros m s e Hwf Hse. exact (char_post_total _ _ _ _ _ _ (may_loss_char m s e Hwf Hse)). Qed.

Theorem c09_inv : forall c cap ops b outs, reach false c cap ops b outs ->
  WF (st b) /\ size (st b) = N.min (written b) (max_data b) /\ written b = total_written ops /\
  sb_execs c (Some (with_capacity cap)) ops = (Some b, outs).
Proof.
  intros c cap ops b outs H. destruct (reach_inv _ _ _ _ _ _ H) as ([I1 I2 _] & R2 & _).
  repeat split; auto. exact (run_ok_execs _ _ _ _ _ _ H).
Qed.

(* nothing unacknowledged is dropped: the deque holds content[base, written), base is the first byte
   that is not Recved, and written() counts every byte ever written *)
Theorem c09_retain : forall c cap ops b outs, reach true c cap ops b outs ->
  written b = total_written ops /\
  base b <= size (st b) /\ size (st b) <= written b /\
  (forall i, i < base b -> colour_at (st b) i = Some Recved) /\
  (base b < size (st b) -> colour_at (st b) (base b) <> Some Recved) /\
  (forall s e, base b <= s -> e <= written b -> data_of c b s e = slice c s (e - s)).
Proof.
  intros c cap ops b outs H. destruct (reach_inv _ _ _ _ _ _ H) as (HI & Hw & HT & _).
  split; [exact Hw|]. apply retain_facts; auto.
Qed.

Theorem c09_pick : forall c cap ops b outs pred flow b' s e fr d,
  reach true c cap ops b outs -> (forall o a, pred o = Some a -> 1 <= a) ->
  pick_up c b pred flow = UpOk b' s e fr d ->
  s < e /\ e <= N.min (written b) (max_data b) /\
  (exists a, pred s = Some a /\ e - s <= a) /\
  (exists col, (col = Lost \/ col = Pending) /\ (fr = true <-> col = Pending) /\
               forall i, s <= i < e -> colour_at (st b) i = Some col) /\
  (fr = true -> flow <> 0 /\ e - s <= flow) /\
  (forall i, i < s -> colour_at (st b) i = Some Flighting \/ colour_at (st b) i = Some Recved) /\
  (forall i, colour_at (st b') i = if in_range s e i then Some Flighting else colour_at (st b) i) /\
  d = slice c s (e - s).
Proof.
  intros c cap ops b outs pred flow b' s e fr d H. destruct (reach_inv _ _ _ _ _ _ H) as (HI & _ & HT & _).
  apply pick_facts; auto.
Qed.

Theorem c09_fresh_once_suffix : forall c cap ops b outs, reach false c cap ops b outs ->
  sent b <= size (st b) /\ forall i, colour_at (st b) i = Some Pending <-> sent b <= i < size (st b).
Proof. intros c cap ops b outs H. apply pending_suffix, (reach_inv _ _ _ _ _ _ H). Qed.

Theorem c09_fresh_once_no_repending : forall c cap ops b outs o b' out i col,
  reach false c cap ops b outs -> sb_exec c b o = (Some b', out) ->
  o <> SbForget -> colour_at (st b) i = Some col -> col <> Pending ->
  exists col', colour_at (st b') i = Some col' /\ col' <> Pending.
Proof. intros c cap ops b outs o b' out i col H. apply no_repending, (reach_inv _ _ _ _ _ _ H). Qed.

Theorem c09_fresh_once_sum : forall c cap ops b outs, reach false c cap ops b outs ->
  fresh_sum 0 ops outs = sent b.
Proof. intros c cap ops b outs H. apply (reach_inv _ _ _ _ _ _ H). Qed.

Theorem c09_fresh_once_tiles : forall c cap ops b outs pred flow b' s e d,
  reach false c cap ops b outs -> (forall o a, pred o = Some a -> 1 <= a) ->
  pick_up c b pred flow = UpOk b' s e true d -> s = sent b /\ e = sent b' /\ s < e.
Proof. intros c cap ops b outs pred flow b' s e d H. apply fresh_at_sent, (reach_inv _ _ _ _ _ _ H). Qed.

Theorem c09_fresh_once_sent_mono : forall c cap ops b outs o b' out,
  reach false c cap ops b outs -> sb_exec c b o = (Some b', out) ->
  o <> SbForget -> sent b <= sent b'.
Proof. intros c cap ops b outs o b' out H. apply sent_mono, (reach_inv _ _ _ _ _ _ H). Qed.

Theorem c09_lost_reoffered : forall c cap ops b outs i k flow,
  reach false c cap ops b outs -> colour_at (st b) i = Some Lost -> 1 <= k -> k < two62 ->
  exists b' s e d, pick_up c b (fun _ => Some k) flow = UpOk b' s e false d /\ s <= i /\ s < e /\
                   forall j, s <= j < e -> colour_at (st b) j = Some Lost.
Proof. intros c cap ops b outs i k flow H. apply lost_reoffered, (reach_inv _ _ _ _ _ _ H). Qed.

Theorem c09_complete : forall c cap ops b outs, reach true c cap ops b outs ->
  (is_all_rcvd b = true <-> forall i, i < written b -> colour_at (st b) i = Some Recved).
Proof.
  intros c cap ops b outs H. destruct (reach_inv _ _ _ _ _ _ H) as (_ & _ & HT & _). apply complete_iff; auto.
Qed.

(* every successful pick has a non-empty range, over ALL operation lists (finding F29 is fixed:
   this was refuted by an empty loss range before) *)
Theorem c09_pick_nonempty : forall c cap ops b outs pred flow b' s e fr d,
  sb_execs c (Some (with_capacity cap)) ops = (Some b, outs) ->
  (forall o a, pred o = Some a -> 1 <= a) ->
  pick_up c b pred flow = UpOk b' s e fr d -> s < e.
Proof.
  intros c cap ops b outs pred flow b' s e fr d H. apply execs_run_ok in H. apply pick_nonempty, (reach_inv _ _ _ _ _ _ H).
Qed.

Theorem c09_empty_range_noop : forall b s e, e <= s ->
  on_data_acked b s e = Some b /\ may_loss_data b s e = Some b.
Proof. intros b s e H. apply report_noop. exact (N.le_trans _ _ _ (N.le_min_l _ _) H). Qed.

Example c09_f29_regression :
  exists b outs, sb_execs content (Some (with_capacity 6)) [SbWrite 5; SbPick 5 5 100; SbLoss 5 5; SbAck 5 5; SbLoss 7 2] = (Some b, outs) /\
    runs (st b) = [(0, Flighting)] /\
    pick_up content b (fun _ => Some 3) 3 = UpErr true false false.
Proof. eexists _, _. split; [vm_compute; reflexivity|]. split; [reflexivity|vm_compute; reflexivity]. Qed.

(* forget_sent_state at base = 0 (its only reachable use: 0-RTT rejection) stays in the strict class:
   retain / pick / complete keep holding for the state after it and for every strict continuation, and the
   whole written data is still held *)
Theorem c09_forget_safe_at_base0 : forall c cap ops b outs,
  reach true c cap ops b outs -> base b = 0 ->
  reach true c cap (ops ++ [SbForget]) (forget_sent_state b) (outs ++ [OUnit]) /\
  written (forget_sent_state b) = written b /\ base (forget_sent_state b) = 0 /\
  (forall i, colour_at (st (forget_sent_state b)) i = None) /\
  (forall s e, e <= written b -> data_of c (forget_sent_state b) s e = slice c s (e - s)).
Proof.
  intros c cap ops b outs H Hb. split; [|split; [|split; [|split]]].
  - unfold reach in *. eapply run_ok_snoc; [exact H| |reflexivity]. cbn [class_okb]. now apply N.eqb_eq.
  - reflexivity.
  - exact Hb.
  - intro i. rewrite colour_at_colr. unfold forget_sent_state, empty_map. cbn [st size].
    destruct (N.ltb_spec i 0); [lia|reflexivity].
  - intros s e He. apply data_of_held; [cbn [forget_sent_state base]; lia|exact He].
Qed.

(* after EVERY operation list, an acknowledgement or loss report with ANY range succeeds: the debug
   assertions of BufMap::ack_rcvd / may_loss (range covers Pending, range beyond size) are unreachable
   through SendBuf *)
Theorem c09_report_total : forall c cap ops b outs s e, reach false c cap ops b outs ->
  on_data_acked b s e <> None /\ may_loss_data b s e <> None.
Proof. intros c cap ops b outs s e H. apply report_total, (reach_inv _ _ _ _ _ _ H). Qed.

(* what a report does: exactly the sent part of the range changes colour; never-sent bytes stay Pending
   (they are still offered, as fresh data: c09_pick), nothing else moves *)
Theorem c09_report_ack : forall c cap ops b outs s e b', reach false c cap ops b outs ->
  on_data_acked b s e = Some b' ->
  written b' = written b /\ sent b' = sent b /\ max_data b' = max_data b /\ size (st b') = size (st b) /\
  (forall i, colour_at (st b') i = if in_range s (N.min e (sent b)) i then Some Recved else colour_at (st b) i).
Proof. intros c cap ops b outs s e b' H. apply report_ack_facts, (reach_inv _ _ _ _ _ _ H). Qed.

Theorem c09_report_loss : forall c cap ops b outs s e b', reach false c cap ops b outs ->
  may_loss_data b s e = Some b' ->
  written b' = written b /\ sent b' = sent b /\ max_data b' = max_data b /\ size (st b') = size (st b) /\
  base b' = base b /\ retained b' = retained b /\
  (forall i, colour_at (st b') i = if in_range s (N.min e (sent b)) i then option_map lossf (colour_at (st b) i) else colour_at (st b) i).
Proof. intros c cap ops b outs s e b' H. apply report_loss_facts, (reach_inv _ _ _ _ _ _ H). Qed.

Theorem c09_stale_report_noop : forall b s e, sent b <= s ->
  on_data_acked b s e = Some b /\ may_loss_data b s e = Some b.
Proof. intros b s e H. apply report_noop. exact (N.le_trans _ _ _ (N.le_min_r _ _) H). Qed.

(* 0-RTT rejection = forget_sent_state at base 0 followed by the window of the real handshake: the state
   stays in the strict class, nothing counts as sent, and every report (loss or acknowledgement of a frame
   that travelled in a rejected 0-RTT packet) leaves the buffer exactly as it is *)
Theorem c09_forget_then_reports : forall c cap ops b outs mx b1,
  reach true c cap ops b outs -> base b = 0 -> extend (forget_sent_state b) mx = Some b1 ->
  reach true c cap (ops ++ [SbForget; SbExtend mx]) b1 (outs ++ [OUnit; OUnit]) /\
  sent b1 = 0 /\ written b1 = written b /\ base b1 = 0 /\
  (forall s e, on_data_acked b1 s e = Some b1 /\ may_loss_data b1 s e = Some b1).
Proof.
  intros c cap ops b outs mx b1 H Hb E.
  destruct (c09_forget_safe_at_base0 _ _ _ _ _ H Hb) as (R1 & _).
  assert (R2 : reach true c cap ((ops ++ [SbForget]) ++ [SbExtend mx]) b1 ((outs ++ [OUnit]) ++ [OUnit])).
  { unfold reach in *. eapply run_ok_snoc; [exact R1|reflexivity|]. cbn [sb_exec]. rewrite E. reflexivity. }
  rewrite <- !app_assoc in R2. cbn [app] in R2.
  destruct (reach_inv _ _ _ _ _ _ R1) as (HI & _).
  destruct (step_extend _ _ _ HI E) as ((_ & W & S & _) & B & _).
  split; [exact R2|]. split; [exact S|]. split; [exact W|]. split; [now rewrite B|].
  intros s e. apply report_noop. rewrite S. apply N.le_trans with 0; [apply N.le_min_r|apply N.le_0_l].
Qed.

(* regression for F70: 10 bytes, 6 sent in 0-RTT, rejection (forget + new window 8); the loss and the
   acknowledgement of the 0-RTT frame 0..6 are ignored; 3 bytes are sent again; the loss report of the
   0-RTT frame now marks exactly these 3 bytes Lost (and not the never-sent rest), an acknowledgement of the
   0-RTT frame marks exactly these 3 bytes Recved; the rest is still offered as fresh data *)
Example c09_f70_regression :
  exists b outs, sb_execs content (Some (with_capacity 10))
      [SbWrite 10; SbPick 6 6 100; SbForget; SbExtend 8; SbLoss 0 6; SbAck 0 6; SbPick 3 3 100; SbLoss 0 6] = (Some b, outs) /\
    runs (st b) = [(0, Lost); (3, Pending)] /\ sent b = 3 /\ base b = 0 /\ retained b = 10 /\
    (exists b', on_data_acked b 0 6 = Some b' /\ runs (st b') = [(3, Pending)] /\ base b' = 3 /\ retained b' = 7 /\
       exists b'' d, pick_up content b' (fun _ => Some 10) 10 = UpOk b'' 3 8 true d /\ d = slice content 3 5).
Proof.
  (* [vm_compute] is aimed at the equations that compute and at nothing else: normalising a
     whole statement is slow, at Qed and for coqchk *)
  eexists _, _. split; [vm_compute; reflexivity|]. do 4 (split; [reflexivity|]).
  eexists. split; [vm_compute; reflexivity|]. do 3 (split; [reflexivity|]).
  eexists _, _. split; [vm_compute; reflexivity|reflexivity].
Qed.

(* outside the strict class the data statement of c09_pick is false (finding F28, latent):
   forget_sent_state after an acknowledgement released bytes from the deque: the bytes are Pending
   again, are offered as fresh data, but the data handed out is not the written slice *)
Theorem c09_pick_data_refuted :
  exists ops b outs b' d, sb_execs content (Some (with_capacity 4)) ops = (Some b, outs) /\
    pick_up content b (fun _ => Some 4) 4 = UpOk b' 0 4 true d /\ d <> slice content 0 4 /\ lenN d = 2.
Proof.
  exists [SbWrite 4; SbPick 4 4 100; SbAck 0 2; SbForget; SbExtend 4].
  eexists _, _, _, _. split; [vm_compute; reflexivity|]. split; [vm_compute; reflexivity|]. split; [discriminate|reflexivity].
Qed.

(* non-vacuity: a history with partial picks, a flow-limited pick, loss, ack after loss, a repeated
   and a misaligned ack, loss after ack, empty ranges, resend_flighting, a window extension and a refused pick is
   in the strict class, ends with everything acknowledged, and its fresh lengths add up to sent() *)
Example c09_nonvacuous :
  let ops := [SbWrite 12; SbPick 4 8 100; SbPick 3 2 100; SbLoss 0 4; SbAck 1 3; SbAck 1 3; SbLoss 2 5;
              SbPick 9 9 100; SbPick 1 0 100; SbResend; SbPick 2 9 100; SbExtend 20; SbPick 20 20 100;
              SbPick 20 20 100; SbPick 20 20 100; SbPick 20 20 100; SbAck 3 12; SbLoss 12 12; SbAck 7 7; SbLoss 0 2; SbAck 0 1; SbWrite 2; SbPick 7 7 100;
              SbAck 0 14] in
  match run_ok true content (with_capacity 10) ops with
  | Some (b, outs) =>
      is_all_rcvd b = true /\ written b = 14 /\ sent b = 14 /\ base b = 14 /\ fresh_sum 0 ops outs = 14 /\
      runs (st b) = []
  | None => False
  end.
Proof. vm_compute. repeat split. Qed.

(* non-vacuity of the rejection path: data sent in 0-RTT, rejection, stale loss / acknowledgement reports of the
   0-RTT frame before and after part of the data was sent again; the history is in the strict class and ends with
   everything acknowledged, the fresh lengths since the rejection add up to sent() *)
Example c09_nonvacuous_rejection :
  let ops := [SbWrite 10; SbPick 6 6 100; SbForget; SbExtend 8; SbLoss 0 6; SbAck 0 6; SbPick 3 3 100; SbLoss 0 6;
              SbPick 9 9 100; SbPick 9 9 100; SbAck 2 6; SbExtend 10; SbPick 9 9 100; SbAck 0 10] in
  match run_ok true content (with_capacity 10) ops with
  | Some (b, outs) =>
      is_all_rcvd b = true /\ written b = 10 /\ sent b = 10 /\ base b = 10 /\ fresh_sum 0 ops outs = 10 /\
      runs (st b) = []
  | None => False
  end.
Proof. vm_compute. repeat split. Qed.

Print Assumptions c09_ref_ack.
Print Assumptions c09_ref_loss.
Print Assumptions c09_ref_pick.
Print Assumptions c09_ref_extend_to.
Print Assumptions c09_ref_shift.
Print Assumptions c09_ref_resend.
Print Assumptions c09_ref_ack_total.
Print Assumptions c09_ref_loss_total.
Print Assumptions c09_inv.
Print Assumptions c09_retain.
Print Assumptions c09_pick.
Print Assumptions c09_fresh_once_suffix.
Print Assumptions c09_fresh_once_no_repending.
Print Assumptions c09_fresh_once_sum.
Print Assumptions c09_fresh_once_tiles.
Print Assumptions c09_fresh_once_sent_mono.
Print Assumptions c09_lost_reoffered.
Print Assumptions c09_complete.
Print Assumptions c09_pick_nonempty.
Print Assumptions c09_empty_range_noop.
Print Assumptions c09_f29_regression.
Print Assumptions c09_forget_safe_at_base0.
Print Assumptions c09_report_total.
Print Assumptions c09_report_ack.
Print Assumptions c09_report_loss.
Print Assumptions c09_stale_report_noop.
Print Assumptions c09_forget_then_reports.
Print Assumptions c09_f70_regression.
Print Assumptions c09_pick_data_refuted.
Print Assumptions c09_nonvacuous.
Print Assumptions c09_nonvacuous_rejection.
