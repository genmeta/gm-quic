(* C06 — packet protection round-trips and rejects any modified packet.
   Only the property theorems live here: each follows in a few lines from the lemmas of Proofs/Protect.v or
   Proofs/KeyPhase.v, and its assumptions are printed for the audit.

   LEVEL: partial by design.  The AEAD (enc/dec) and the header-protection mask are universally
   quantified functions with the stated hypotheses — cryptography is assumed, layout is proved:
     enc_dec   dec k n a (enc k n a p) = Some p                      (round trip)
     enc_len   |enc k n a p| = |p| + 16                              (tag length)
     auth      dec k n a c = Some p -> c = enc k n a p               (dec accepts only what enc produces)
     no_forgery (premise on the adversary's datagram): no segment of it is an AEAD output for inputs
               other than the honest (key, pn, aad, body) — ideal authenticity/unforgeability; every
               key of the key type is unknown to the adversary.
   The toy cipher of the harness satisfies enc_dec, enc_len and auth (theorems c06_toy_roundtrip, c06_toy_len, c06_toy_dec_enc), not no_forgery. *)
From Coq Require Import List ZArith NArith Bool Lia.
From GQ Require Import Lib.Wire Model.Packets Model.Pn Model.Protect Model.KeyPhase Model.ProtectIO
                       Proofs.Packets Proofs.Protect Proofs.KeyPhase.
Import ListNotations.
Local Open Scope Z_scope.

Section C06.
  Variables key hkey : Type.
  Variable enc : key -> Z -> list Z -> list Z -> list Z.
  Variable dec : key -> Z -> list Z -> list Z -> option (list Z).
  Variable mask : hkey -> list Z -> list Z.

  (* header protection is a bijection on packets: the sample (16 bytes, 4 bytes after the pn offset) is not
     touched, the first byte and the pn bytes are XORed with a mask that depends on the sample only *)
  Theorem c06_hp_unprotect_then_protect : forall hk pkt off U n v,
    unprotect hkey mask hk pkt off = UOk U n v -> 1 <= off <= zlen pkt ->
    hp_protect hkey mask hk U off n = Some pkt /\ zlen U = zlen pkt /\ 1 <= n <= 4 /\
    n = Z.land (hd 0 U) 3 + 1 /\
    skipn (Z.to_nat (off + n)) U = skipn (Z.to_nat (off + n)) pkt /\ off + 20 <= zlen pkt.
  Proof. exact (unprotect_inv hkey mask). Qed.

  Theorem c06_hp_protect_then_unprotect : forall hk U off n P,
    hp_protect hkey mask hk U off n = Some P -> 1 <= off <= zlen U -> 1 <= n <= 4 ->
    n = Z.land (hd 0 U) 3 + 1 ->
    exists v, unprotect hkey mask hk P off = UOk U n v /\ zlen P = zlen U /\
              v = match get_be (Z.to_nat n) 0 (sub (skipn (Z.to_nat off) U) 0 n) with Some (x, _) => x | None => 0 end.
  Proof. exact (protect_unprotect hkey mask). Qed.

  (* what the writer produces: preconditions of encrypt_and_protect_packet (the exact sampling minimum is
     pn_len + |body| + 16 >= 20; long packets need pn_len + |body| + 16 < 2^14 for the 2-byte length) *)
  Theorem c06_build_spec : forall h phase pn e body bufsz k hk P,
    build key hkey enc mask h phase pn e body bufsz k hk = BOk P ->
    let aad := build_aad h phase e (zlen body) in
    is_data h = true /\
    hp_protect hkey mask hk (aad ++ enc k pn aad body) (pn_off h) (width e) = Some P /\
    20 <= width e + zlen body + TAG_LEN /\ pn_off h + 20 <= bufsz /\
    (is_short h = false -> width e + zlen body + TAG_LEN < 2 ^ 14).
  Proof using key hkey enc dec mask. exact (build_spec key hkey enc mask 0). Qed.

  (* ROUND TRIP: header, packet number, key phase and body are recovered, for every data header
     (Initial with any token, 0-RTT, Handshake, 1-RTT with either key phase and spin bit, connection ids of
     any length), every pn encoding of 1..4 bytes that the receiver's expectation decodes (property C07),
     every body that the writer accepts.  Hypothesis [be_packet …]: it holds of every built packet once the receiver
     knows the length of the destination connection id ([build_parses] of Proofs/Protect.v, which the instances below
     go through); the correspondence stream checks it on every generated packet. *)
  Theorem c06_roundtrip :
    (forall k n a p, dec k n a (enc k n a p) = Some p) ->
    (forall k n a p, zlen (enc k n a p) = zlen p + TAG_LEN) ->
    forall h phase pn e body bufsz k hk P dl exp,
    build key hkey enc mask h phase pn e body bufsz k hk = BOk P -> wf_header h ->
    be_packet dl P = POk h (zlen P) (pn_off h) ->
    0 <= exp -> decode (wire e) exp = DecOk pn -> 0 <= payload e < 2 ^ (8 * width e) ->
    recv1 key hkey dec mask k hk dl exp P = RxAccept h (zlen P) pn (is_short h && phase) body.
  Proof.
    intros ED EL h phase pn e body bufsz k hk P dl exp HB Hwf.
    apply (p_c06_roundtrip_r key hkey enc dec mask ED EL 0 _ _ _ _ _ _ _ _ _ _ _ HB Hwf).
    destruct (is_short h); left; reflexivity.
  Qed.

  (* TAMPER: whatever datagram reaches a receiver holding any packet key / header key and any packet-number
     expectation, acceptance implies the sender's key, the sender's packet number, the sender's body and
     (under the sender's header key) exactly the packet sent. *)
  Theorem c06_tamper_rejected :
    (forall k n a c p, dec k n a c = Some p -> c = enc k n a p) ->
    forall h phase pn e body bufsz k hk P,
    build key hkey enc mask h phase pn e body bufsz k hk = BOk P -> wf_header h ->
    forall k' hk' dl exp dg h' total pn' ph body',
      no_forgery key enc k pn (build_aad h phase e (zlen body)) body dg ->
      recv1 key hkey dec mask k' hk' dl exp dg = RxAccept h' total pn' ph body' ->
      k' = k /\ pn' = pn /\ body' = body /\ (hk' = hk -> firstn (Z.to_nat total) dg = P).
  Proof.
    intros auth h phase pn e body bufsz k hk P built Hwf k' hk' dl exp dg h' total pn' ph body' Hnf Hacc.
    pose proof (recv1_unforged key hkey enc dec mask auth _ _ _ _ _ _ _ _ _ built Hwf k' hk' dl exp dg Hnf) as H.
    cbv zeta in H. rewrite Hacc in H.
    destruct H as [[]|[[H _]|(h1 & total1 & ph1 & H & -> & _ & HP)]]; [discriminate|].
    injection H as _ -> -> _ ->. auto.
  Qed.

  (* DISCARDED (full strength after the fix of F45).  Whatever datagram reaches a receiver holding any packet key,
     any header key and any packet-number expectation (one that PacketNumber::decode does not overflow on): the
     receive path either DROPS it (parse error, refused pn, AEAD failure, or not a protected packet at all), or it
     delivers exactly the honest sender's packet.  It never answers with a connection error. *)
  Theorem c06_tamper_discarded :
    (forall k n a c p, dec k n a c = Some p -> c = enc k n a p) ->
    forall h phase pn e body bufsz k hk P,
    build key hkey enc mask h phase pn e body bufsz k hk = BOk P -> wf_header h ->
    forall k' hk' dl exp dg,
      no_forgery key enc k pn (build_aad h phase e (zlen body)) body dg ->
      (forall n v, decode (mk_pnum n v) exp <> DecOverflow) ->
      let r := recv1 key hkey dec mask k' hk' dl exp dg in
      dropped r \/
      exists h' total ph, r = RxAccept h' total pn ph body /\ k' = k /\ is_short h' = is_short h /\
                          (hk' = hk -> firstn (Z.to_nat total) dg = P).
  Proof.
    intros auth h phase pn e body bufsz k hk P built Hwf k' hk' dl exp dg Hnf Hov.
    destruct (recv1_unforged key hkey enc dec mask auth _ _ _ _ _ _ _ _ _ built Hwf k' hk' dl exp dg Hnf)
      as [H|[(_ & n & v & H)|H]]; [left; exact H | exfalso; exact (Hov _ _ H) | right; exact H].
  Qed.

  (* every modification that keeps the length — every single-bit flip at every position — is DROPPED:
     every bit of the packet is covered (AAD, ciphertext/tag, or a masked field whose unmasked value is in the AAD) *)
  Theorem c06_modified_dropped :
    (forall k n a c p, dec k n a c = Some p -> c = enc k n a p) ->
    forall h phase pn e body bufsz k hk P,
    build key hkey enc mask h phase pn e body bufsz k hk = BOk P -> wf_header h ->
    forall k' dl exp dg, zlen dg = zlen P -> dg <> P ->
      no_forgery key enc k pn (build_aad h phase e (zlen body)) body dg ->
      (forall n v, decode (mk_pnum n v) exp <> DecOverflow) ->
      dropped (recv1 key hkey dec mask k' hk dl exp dg).
  Proof.
    intros auth h phase pn e body bufsz k hk P built Hwf k' dl exp dg Hlen Hne Hnf Hov.
    destruct (c06_tamper_discarded auth h phase pn e body bufsz k hk P built Hwf k' hk dl exp dg Hnf Hov)
      as [H|(h' & total & ph & _ & _ & _ & HPeq)]; [exact H|exfalso].
    (* a prefix of dg as long as dg is dg *)
    specialize (HPeq eq_refl). apply Hne. rewrite <- HPeq. symmetry. apply firstn_all2.
    apply (f_equal (@length Z)) in HPeq. rewrite firstn_length in HPeq. unfold zlen in Hlen. lia.
  Qed.

  (* an AUTHENTIC packet (made with the keys) whose reserved bits are set is still answered with
     PROTOCOL_VIOLATION ([build_r rsv]: the writer with reserved bits rsv <> 0) *)
  Theorem c06_authentic_reserved_is_error :
    (forall k n a p, dec k n a (enc k n a p) = Some p) ->
    (forall k n a p, zlen (enc k n a p) = zlen p + TAG_LEN) ->
    forall rsv h phase pn e body bufsz k hk P dl exp,
    build_r key hkey enc mask rsv h phase pn e body bufsz k hk = BOk P -> wf_header h ->
    In rsv (rsv_values (is_short h)) -> rsv <> 0 ->
    be_packet dl P = POk h (zlen P) (pn_off h) ->
    0 <= exp -> decode (wire e) exp = DecOk pn -> 0 <= payload e < 2 ^ (8 * width e) ->
    recv1 key hkey dec mask k hk dl exp P = RxConnErr.
  Proof.
    intros ED EL rsv h phase pn e body bufsz k hk P dl exp HB Hwf Hin Hne Hp He Hd Hpay.
    rewrite (p_c06_roundtrip_r key hkey enc dec mask ED EL _ _ _ _ _ _ _ _ _ _ _ _ HB Hwf Hin Hp He Hd Hpay).
    destruct (Z.eqb_spec rsv 0); [contradiction|reflexivity].
  Qed.

  Theorem c06_other_key_or_pn_rejected :
    (forall k n a c p, dec k n a c = Some p -> c = enc k n a p) ->
    forall h phase pn e body bufsz k hk P,
    build key hkey enc mask h phase pn e body bufsz k hk = BOk P -> wf_header h ->
    no_forgery key enc k pn (build_aad h phase e (zlen body)) body P ->
    forall k' hk' dl exp h' total pn' ph body',
      recv1 key hkey dec mask k' hk' dl exp P = RxAccept h' total pn' ph body' -> k' = k /\ pn' = pn.
  Proof.
    intros A h phase pn e body bufsz k hk P HB Hwf Hnf k' hk' dl exp h' total pn' ph body' Hacc.
    destruct (c06_tamper_rejected A _ _ _ _ _ _ _ _ _ HB Hwf _ _ _ _ _ _ _ _ _ _ Hnf Hacc) as (H1 & H2 & _).
    split; assumption.
  Qed.
End C06.

(* the code as it is: every delivered packet is opened with the generation it was protected with, or
   (finding F20) the sender is at generation >= 2 and the receiver used the key of two generations ago *)
Theorem c06_keyphase_known : forall l s', sys_run k_get_remote sys_init l = Some s' ->
  Forall (fun x => sel_ok x \/ (2 <= fst x /\ snd x = GKey (fst x - 2)))%N (s_sel s').
Proof. intros l s' Hr. exact (proj2 (run_inv false l sys_init s' (Inv_init _) (Forall_nil _) Hr)). Qed.

(* in particular everything is right up to and including the first key update of the sender *)
Theorem c06_keyphase_first : forall l s', sys_run k_get_remote sys_init l = Some s' ->
  Forall (fun x => (fst x <= 1)%N -> sel_ok x) (s_sel s').
Proof.
  intros l s' Hr. eapply Forall_impl; [|exact (proj2 (run_inv false l sys_init s' (Inv_init _) (Forall_nil _) Hr))].
  intros x [H|(H & _)] Hle; [exact H|lia].
Qed.

(* full-strength statement REFUTED: two key updates of the peer and no phase_out (it has no caller) *)
Theorem c06_keyphase_refuted :
  exists l s', sys_run k_get_remote sys_init l = Some s' /\ ~ Forall sel_ok (s_sel s') /\
               ~ In ERecvPhaseOut l /\ s_sel s' = [(0, GKey 0); (1, GKey 1); (2, GKey 0)]%N.
Proof. exact p_c06_keyphase_refuted. Qed.

(* full strength under the intended discipline: phase_out() runs before the peer's next update *)
Theorem c06_keyphase : forall l s', sys_run_d sys_init l = Some s' -> Forall sel_ok (s_sel s').
Proof.
  intros l s' Hr. eapply Forall_impl; [|exact (proj2 (run_inv true l sys_init s' (Inv_init _) (Forall_nil _) Hr))].
  intros x [H|[]]. exact H.
Qed.

(* get_remote never reaches its unwrap() on None, whatever is called in whatever order *)
Theorem c06_get_remote_no_panic : forall l p, fst (k_get_remote (fold_left k_call l k_init) p) <> GPanic.
Proof.
  intros l p. change k_init with (keys 0 false). destruct (keys_calls l 0%N false) as (g & o & ->).
  rewrite keys_get_remote. destruct (eqb p (phase_of g)), o; discriminate.
Qed.

Theorem c06_toy_roundtrip : forall k n a p, toy_dec k n a (toy_enc k n a p) = Some p.
Proof. exact p_c06_toy_enc_dec. Qed.
Theorem c06_toy_len : forall k n a p, zlen (toy_enc k n a p) = zlen p + TAG_LEN.
Proof. exact p_c06_toy_enc_len. Qed.
(* dec accepts only what enc produces: true of any deterministic encrypt-then-check scheme, also of the toy *)
Theorem c06_toy_dec_enc : forall k n a c p, toy_dec k n a c = Some p -> c = toy_enc k n a p.
Proof.
  intros k n a c p. unfold toy_dec. destruct (Z.ltb_spec (zlen c) 16) as [|Hl]; [discriminate|].
  set (m := Z.to_nat (zlen c - 16)).
  destruct (list_eqb (toy_tag k n a (firstn m c)) (skipn m c)) eqn:E; [|discriminate].
  intro H. injection H as <-. apply list_eqb_eq in E.
  unfold toy_enc. rewrite toy_xor_invol, E. symmetry. apply firstn_skipn.
Qed.

(* the repaired finding F45 on instances: one flipped reserved bit of a valid packet is DROPPED (decryption
   failure) for a short and for a long header; the same packets made by a key holder who sets a reserved bit are
   answered with the connection error *)
Theorem c06_reserved_bit_instances :
  exists P : list Z, tbuild (mk_header 3 8 0 0 1) true 1 (U16 1) (cbytes 1000 3) 1200 7 9 = BOk P /\
    recv1 Z Z toy_dec toy_mask 7 9 8 0 (flip_bit P 3) = RxDecrypt /\
  exists Q : list Z, tbuild (mk_header 2 8 8 0 0) false 1 (U16 1) (cbytes 1000 3) 1200 7 9 = BOk Q /\
    recv1 Z Z toy_dec toy_mask 7 9 8 0 (flip_bit Q 4) = RxDecrypt /\
  exists P' : list Z, tbuild_r 16 (mk_header 3 8 0 0 1) true 1 (U16 1) (cbytes 1000 3) 1200 7 9 = BOk P' /\
    be_packet 8 P' = POk (mk_header 3 8 0 0 1) (zlen P') (pn_off (mk_header 3 8 0 0 1)) /\
    recv1 Z Z toy_dec toy_mask 7 9 8 0 P' = RxConnErr /\
  exists Q' : list Z, tbuild_r 8 (mk_header 2 8 8 0 0) false 1 (U16 1) (cbytes 1000 3) 1200 7 9 = BOk Q' /\
    be_packet 8 Q' = POk (mk_header 2 8 8 0 0) (zlen Q') (pn_off (mk_header 2 8 8 0 0)) /\
    recv1 Z Z toy_dec toy_mask 7 9 8 0 Q' = RxConnErr.
Proof.
  eexists. split; [vm_compute; reflexivity|]. split; [vm_compute; reflexivity|].
  eexists. split; [vm_compute; reflexivity|]. split; [vm_compute; reflexivity|].
  destruct (toy_roundtrip 16 (mk_header 3 8 0 0 1) true 1 (U16 1) (cbytes 1000 3) 1200 7 9 8 0) as (P' & HB & Hp & Hr);
    [cbv; intuition (discriminate || reflexivity) ..|].
  exists P'. split; [exact HB|]. split; [exact Hp|]. split; [exact Hr|].
  destruct (toy_roundtrip 8 (mk_header 2 8 8 0 0) false 1 (U16 1) (cbytes 1000 3) 1200 7 9 8 0) as (Q' & HB' & Hp' & Hr');
    [cbv; intuition (discriminate || reflexivity) ..|].
  exists Q'. split; [exact HB'|]. split; [exact Hp'|exact Hr'].
Qed.

(* non-vacuity: for each data header type (cid lengths 0, 8, 20; token; pn lengths 1..4; both key phases; body at
   the sampling minimum) build succeeds, be_packet finds the header in the protected bytes at [pn_off] — the
   hypothesis of c06_roundtrip — and the receive path returns the header, pn, phase and body *)
Definition nv_case (ty dl sl tl ps : Z) (e : pnum) (pn plen dlrx : Z) : bool :=
  let h := mk_header ty dl sl tl ps in
  match tbuild h (bit_set ps 1) pn e (cbytes 1000 plen) 1200 7 9 with
  | BOk P =>
      match be_packet dlrx P with
      | POk h' total off => (total =? zlen P) && (off =? pn_off h) && (hkind h' =? hkind h)
      | _ => false
      end &&
      match recv1 Z Z toy_dec toy_mask 7 9 dlrx pn P with
      | RxAccept h' total pn' ph body => (pn' =? pn) && list_eqb body (cbytes 1000 plen) && Bool.eqb ph (is_short h && bit_set ps 1)
      | _ => false
      end
  | _ => false
  end.

Example c06_nonvacuous :
  nv_case 0 8 8 5 0 (U16 258) 258 2 0 = true /\ nv_case 0 0 20 64 0 (U8 7) 7 3 0 = true /\
  nv_case 1 20 0 0 0 (U24 70000) 70000 1 0 = true /\ nv_case 2 8 8 0 0 (U32 5) 5 0 0 = true /\
  nv_case 3 8 0 0 0 (U16 258) 258 2 8 = true /\ nv_case 3 0 0 0 3 (U8 9) 9 3 0 = true /\
  nv_case 3 20 0 0 1 (U32 4000000000) 4000000000 0 20 = true /\ nv_case 3 5 0 0 2 (U24 66000) 66000 1 5 = true.
Proof.
  assert (H : forall ty dl sl tl ps e pn plen dlrx,
    let h := mk_header ty dl sl tl ps in
    wf_header h -> dcid_len_of h dlrx -> pn_off h + width e + zlen (cbytes 1000 plen) + TAG_LEN <= 1200 ->
    20 <= width e + zlen (cbytes 1000 plen) + TAG_LEN < 2 ^ 14 ->
    0 <= pn -> decode (wire e) pn = DecOk pn -> 0 <= payload e < 2 ^ (8 * width e) ->
    nv_case ty dl sl tl ps e pn plen dlrx = true).
  { intros ty dl sl tl ps e pn plen dlrx h Hwf Hdl Hf H20 Hpn Hdec Hpay.
    assert (Hd : is_data h = true) by (unfold h, mk_header; repeat destruct (_ =? _); reflexivity).
    destruct (toy_roundtrip 0 h (bit_set ps 1) pn e (cbytes 1000 plen) 1200 7 9 dlrx pn Hwf Hd Hf (proj1 H20) (fun _ => proj2 H20))
      as (P & HB & Hp & Hr); try assumption; [destruct (is_short h); left; reflexivity|].
    unfold nv_case, tbuild, tbuild_r. fold h. rewrite HB, Hp, Hr. cbn [Z.eqb].
    rewrite !Z.eqb_refl, list_eqb_refl, eqb_reflx. reflexivity. }
  repeat apply conj; apply H; cbv; intuition (discriminate || reflexivity).
Qed.

Print Assumptions c06_hp_unprotect_then_protect.
Print Assumptions c06_hp_protect_then_unprotect.
Print Assumptions c06_build_spec.
Print Assumptions c06_roundtrip.
Print Assumptions c06_tamper_rejected.
Print Assumptions c06_tamper_discarded.
Print Assumptions c06_modified_dropped.
Print Assumptions c06_authentic_reserved_is_error.
Print Assumptions c06_other_key_or_pn_rejected.
Print Assumptions c06_keyphase_known.
Print Assumptions c06_keyphase_first.
Print Assumptions c06_keyphase_refuted.
Print Assumptions c06_keyphase.
Print Assumptions c06_get_remote_no_panic.
Print Assumptions c06_toy_roundtrip.
Print Assumptions c06_toy_len.
Print Assumptions c06_toy_dec_enc.
Print Assumptions c06_reserved_bit_instances.
Print Assumptions c06_nonvacuous.
