(* C04 — hostile but well-formed frames cost bounded work and get the RFC's error.
   The lemmas and the longer proofs are in Proofs/C04.v and Proofs/C04Cid.v.

   Cost unit: one loop iteration, one allocated cell or one frame queued for sending.
   [deliver] is the dispatcher + Ack*Space::recv_frame of the FIXED code (ACK validated against the
   sent journal before any consumer sees it, `>=`, parser check); the three theorems `…_f7/f8/f22
   _refuted` show what the same model yields with one fix switched off.
   K = 2^16 in the finding classes; the conditional theorems are stated for every K. *)
From Coq Require Import List ZArith NArith Bool Lia.
From GQ Require Import Model.RcvdJournal Model.SentJournal Model.C04Cid Model.C04Handlers Proofs.C04Cid Proofs.C04.
From GQ Require Lib.Base Model.RemoteCid.
From GQ Require Lib.Wire Lib.FrameTypes Model.Varint Model.Frames Model.StreamCtl Model.Sid.
Import ListNotations.
Local Open Scope Z_scope.

(* every ACK the parser lets through costs at most (packets ever sent) x (tracked window + 4) plus
   the tracked state — whatever its field values; it is either processed or, if it names an
   unsent packet, rejected before anything iterated over it *)
Theorem c04_ack_cost : forall cc_len now rj sj f rs,
  0 <= cc_len -> 0 <= a_first f -> ranges_nonneg (a_ranges f) -> 0 <= s_off sj ->
  ack_iter f = Some rs ->
  let o := deliver cc_len now rj sj f in
  ao_panic o = false /\
  (ao_err o = 0 \/ ao_err o = E_PROTOCOL_VIOLATION /\ ao_ticks o = 0 /\ ao_collected o = 0) /\
  ao_cost o <= s_next sj * (sj_len sj + 4) + 2 * (sj_len sj + cc_len + r_len rj) + zlen (r_incl rj) + 6.
Proof. exact p_c04_ack_cost. Qed.

(* largest acknowledged >= next unsent packet number: PROTOCOL_VIOLATION, one unit of work, no
   consumer iterates, no journal changes *)
Theorem c04_ack_unsent_rejected : forall cc_len now rj sj f,
  s_next sj <= a_largest f ->
  deliver cc_len now rj sj f = mkao false E_PROTOCOL_VIOLATION 0 0 0 1 0 0 /\
  apply_ack true true now rj sj f = (rj, sj).
Proof.
  intros cc_len now rj sj f H. apply Z.leb_le in H. unfold apply_ack.
  change (deliver_ack true true 0 now rj sj f) with (deliver 0 now rj sj f).
  rewrite !deliver_eq, H. split; reflexivity.
Qed.

(* an ACK-typed frame one of whose computed packet numbers is negative is a parse error
   (FRAME_ENCODING_ERROR by C03's mapping) … *)
Theorem c04_ack_negative_rejected : forall p code ecn bs rest l d fr rs e r,
  Varint.be_varint bs = Wire.Ok code rest ->
  Frames.ft_of_code code = Some (FrameTypes.TAck ecn) ->
  Frames.belongs (FrameTypes.TAck ecn) p = true ->
  Frames.be_ack ecn rest = Wire.Ok (Frames.Ack l d fr rs e) r ->
  ack_iter (mkack l d fr rs) = None ->
  Frames.be_frame p bs = Frames.FErr FrameTypes.EParseError.
Proof.
  intros p code ecn bs rest l d fr rs e r Hv Hc Hb Ha Hn. unfold Frames.be_frame.
  rewrite Hv, Hc, Hb. cbn [negb]. rewrite (be_body_ack_rejects _ _ _ _ _ _ _ _ Ha Hn). reflexivity.
Qed.

(* … a parse error costs one unit and no handler acts on it … *)
Theorem c04_parse_error_inert : forall s cc_len bs e,
  parse_frame (h_f7 s) bs = Frames.FErr e ->
  frame_outcome s cc_len bs = mko [0; E_FRAME_ENCODING] 1 0 0 true 0 /\ frame_apply s bs = s.
Proof. intros s cc_len bs e H. unfold frame_outcome, frame_apply. rewrite H. auto. Qed.

(* … and every ACK frame that does reach the consumers iterates without underflow *)
Theorem c04_ack_delivered_nonnegative : forall bs c l d fr rs e t,
  parse_frame true bs = Frames.FOk c (Frames.Ack l d fr rs e) t ->
  (match t with FrameTypes.TAck _ => True | _ => False end) ->
  ack_iter (mkack l d fr rs) <> None.
Proof.
  intros bs c l d fr rs e t H Ht. unfold parse_frame in H.
  destruct (Frames.be_frame FrameTypes.POneRtt bs) as [c' f' t'|e'|s'] eqn:B; try discriminate.
  - inversion H; subst. destruct t; try contradiction.
    exact (be_frame_ack_valid _ _ _ _ _ B).
  - destruct e'; discriminate.
Qed.

Theorem c04_ack_iter_in_range : forall f rs, 0 <= a_first f -> ranges_nonneg (a_ranges f) ->
  ack_iter f = Some rs ->
  0 <= covered rs <= a_largest f + 1 /\ Forall (range_ok (a_largest f)) rs.
Proof. exact ack_iter_covered. Qed.

(* [covered], the driver of every ACK cost term, is the number of packet numbers the Rust
   `iter().flat_map(|r| r.rev())` yields *)
Theorem c04_covered_counts_numbers : forall rs top, Forall (range_ok top) rs ->
  Z.of_nat (length (expand rs)) = covered rs.
Proof.
  intros rs top. induction 1 as [|[lo hi] r [A B] F IH]; cbn [expand covered]; [reflexivity|].
  cbn [fst snd] in A. rewrite app_length, down_from_length, Nat2Z.inj_add, IH. rewrite Z2Nat.id by lia. reflexivity.
Qed.

(* the code before the fixes, same model with one switch off (witnesses replayed on the real code) *)
Theorem c04_f7_refuted :
  exists bs, parse_frame false bs <> parse_frame true bs /\
    o_words (frame_outcome (after_5_sent [1; 2; 3; 3; 0; 1]) 1 bs) = [PANIC_W] /\
    o_words (frame_outcome (after_5_sent [1; 2; 3; 3; 1; 1]) 1 bs) = [0; E_FRAME_ENCODING].
Proof. exists [2; 3; 0; 0; 10]. vm_compute. split; [discriminate|split; reflexivity]. Qed.

Theorem c04_f8_refuted :
  exists sj f, s_next sj <= a_largest f /\ ao_err (deliver_ack true false 1 0 (rj_new None) sj f) = 0.
Proof. exists sj5, (mkack 5 0 0 []). split; vm_compute; [discriminate|reflexivity]. Qed.

Theorem c04_f22_refuted :
  exists sj f, s_next sj <= a_largest f /\
    let o := deliver_ack false true 1 0 (rj_new None) sj f in
    ao_err o = E_PROTOCOL_VIOLATION /\ ao_ticks o = 2^62 /\ 2^62 < ao_cost o.
Proof.
  exists sj5, (mkack (2^62 - 1) 0 (2^62 - 1) []). split; [vm_compute; discriminate|].
  vm_compute. repeat split; reflexivity.
Qed.

(* packet-number jump: F9.  REFUTED: a 4-byte packet number is 4 bytes on the wire, the fresh journal
   holds nothing *)
Theorem c04_pn_jump_cost_refuted : forall c c', 0 <= c -> 0 <= c' ->
  exists pn, 0 <= pn /\ c * (4 + r_len (rj_new None)) + c' < pn_cost (rj_new None) pn.
Proof.
  intros c c' Hc Hc'. exists (c * 4 + c'). split; [lia|].
  unfold pn_cost, pn_cells, r_next, r_len, rj_new; cbn [r_off r_recs length].
  change (Z.of_nat 0) with 0.
  destruct (Z.ltb_spec (c * 4 + c') (0 + 0)); [lia|]. rewrite andb_false_r.
  destruct (Z.ltb_spec (c * 4 + c') 0); lia.
Qed.

Theorem c04_pn_jump_value_bound : forall j pn, pn_cost j pn <= Z.max 0 (pn - r_next j + 1) + 2.
Proof.
  intros j pn. unfold pn_cost, pn_cells.
  destruct ((r_off j <=? pn) && (pn <? r_next j)); [lia|]. destruct (pn <? r_off j); lia.
Qed.

(* outside the class (jump of more than K numbers) *)
Theorem c04_pn_jump_cost : forall K j pn, 0 <= K -> pn - r_next j <= K -> pn_cost j pn <= K + 3.
Proof. intros K j pn HK H. pose proof (c04_pn_jump_value_bound j pn). lia. Qed.

(* the cost counts exactly the records the journal model appends *)
Theorem c04_pn_cells : forall j now pn el pto j',
  0 <= r_off j -> on_rcvd_pn j now pn el pto = Some j' ->
  r_len j' = r_len j + pn_cells j pn /\ r_off j' = r_off j.
Proof. intros j now pn el pto j' _. apply p_c04_pn_cells. Qed.

(* The handler is the shared model of the repaired code, [rc_recv] = Model.RemoteCid.recv_new_cid
   no_pre post_count (C14): insert, retire_prior_to, arrange_idle_cid, THEN count the active IDs.
   Nothing bounds the sequence number before `IndexDeque::insert` gap-fills up to it. *)

(* REFUTED, and for frames the count-based limit ACCEPTS (one active ID is left): cells allocated,
   RETIRE_CONNECTION_ID frames queued and work all exceed any linear function of the 54 frame bytes
   and the 3 cells of state *)
Theorem c04_new_cid_cost_refuted : forall c c' : N, exists seq rpt : N,
  (rpt <= seq)%N /\
  (let '(s', fr, res) := rc_recv (rc_init 2) seq rpt in
   res = RemoteCid.NAccepted /\ (RemoteCid.active s' <= 1)%N /\
   (c * (54 + rc_size (rc_init 2)) + c' < Base.lenN fr)%N) /\
  (c * (54 + rc_size (rc_init 2)) + c' < rc_new_cells (rc_init 2) seq)%N /\
  (c * (54 + rc_size (rc_init 2)) + c' < rc_new_cost (rc_init 2) seq rpt)%N.
Proof. exact p_c04_new_cid_cost_refuted. Qed.

(* what one frame CAN cause, exactly: [rc_gap] = seq - cid_deque.largest() default cells (plus the
   stored one when the number lies beyond the old end, minus the drained ones): the deque the shared
   model builds has exactly the cells the arithmetic counts … *)
Theorem c04_new_cid_cells : forall s seq rpt s' fr res,
  rc_discards s seq = false -> rc_recv s seq rpt = (s', fr, res) ->
  (Base.lenN (RemoteCid.r_cids s') + rc_drained s seq rpt =
     Base.lenN (RemoteCid.r_cids s) + rc_new_cells s seq + (if rc_end s <=? seq then 1 else 0))%N /\
  RemoteCid.r_coff s' = rc_coff_after s seq rpt.
Proof.
  intros s seq rpt s' fr res HD H. pose proof (rc_recv_deque _ _ _ _ _ _ HD H) as (S1 & S2 & S3).
  pose proof (rc_len_ins_gap s seq HD) as HG. unfold rc_new_cells. rewrite HD.
  split; [|assumption]. destruct (rc_end s <=? seq)%N; lia.
Qed.

(* … and [rc_gap_frames] = retire_prior_to - ready_cells.largest() RETIRE_CONNECTION_ID frames (one per
   sequence NUMBER no path ever used), plus what CidCell::assign retires: at most one per connection
   ID the paths' cells held and per cell in the two queues *)
Theorem c04_new_cid_frames : forall s seq rpt s' fr res,
  rc_discards s seq = false -> rc_recv s seq rpt = (s', fr, res) ->
  (rc_gap_frames s rpt <= Base.lenN fr)%N /\
  (Base.lenN fr <= rc_gap_frames s rpt + allocs (RemoteCid.r_cells s) + Base.lenN (RemoteCid.r_pending s)
                   + Base.lenN (RemoteCid.r_ready s))%N.
Proof.
  intros s seq rpt s' fr res HD H.
  pose proof (rc_recv_counts _ _ _ _ _ _ HD H) as (S4 & S5 & S6 & S7). lia.
Qed.

(* the bound that does hold: linear in the two jumps and in the state *)
Theorem c04_new_cid_value_bound : forall s seq rpt,
  (rc_new_cost s seq rpt <= 2 * rc_gap s seq + rc_gap_frames s rpt + 4 * rc_size s + 6)%N.
Proof.
  intros s seq rpt. unfold rc_new_cost. destruct (rc_discards s seq) eqn:HD; [lia|].
  destruct (rc_recv s seq rpt) as [[s' fr] res] eqn:E.
  pose proof (rc_recv_deque _ _ _ _ _ _ HD E) as (_ & S2 & S3).
  pose proof (rc_recv_counts _ _ _ _ _ _ HD E) as (_ & S5 & S6 & S7).
  pose proof (rc_len_ins_gap s seq HD) as HG. unfold rc_size.
  destruct (rc_end s <=? seq)%N; lia.
Qed.

Theorem c04_new_cid_cost_lower : forall s seq rpt, rc_discards s seq = false ->
  (rc_gap s seq + rc_gap_frames s rpt <= rc_new_cost s seq rpt)%N.
Proof. exact p_c04_new_cid_cost_lower. Qed.

(* outside the class of F10 (sequence number more than K beyond the highest seen, or retire_prior_to
   more than K beyond the highest number a path used) *)
Theorem c04_new_cid_cost : forall K s seq rpt,
  (seq - rc_end s <= K)%N -> (rpt - rc_applied s <= K)%N ->
  (rc_new_cost s seq rpt <= 3 * K + 4 * rc_size s + 6)%N.
Proof.
  intros K s seq rpt H1 H2. pose proof (c04_new_cid_value_bound s seq rpt) as H.
  assert (rc_gap_frames s rpt <= K)%N by (unfold rc_gap_frames; destruct (rc_retires s rpt); lia).
  unfold rc_gap in H. lia.
Qed.

Theorem c04_retire_prior_cost : forall K s seq rpt,
  (rpt - RemoteCid.r_coff s <= K)%N -> (rpt - rc_applied s <= K)%N ->
  (rc_retire_cost s seq rpt <= 2 * K + Base.lenN (RemoteCid.r_ready s) + 1)%N.
Proof.
  intros K s seq rpt H1 H2. unfold rc_retire_cost, rc_drained, rc_coff_after, rc_popped, rc_gap_frames, rc_applied in *.
  destruct (rc_retires s rpt); [|lia].
  (* drain_to and the pop loop stop where their N.min says; only that is used, and lia is slow on N.min *)
  generalize (N.min (N.max rpt (RemoteCid.r_coff s)) (RemoteCid.r_coff s + rc_len_ins s seq)),
    (N.le_min_l (N.max rpt (RemoteCid.r_coff s)) (RemoteCid.r_coff s + rc_len_ins s seq)). intros m M.
  generalize (N.min (RemoteCid.r_roff s + Base.lenN (RemoteCid.r_ready s)) rpt),
    (N.le_min_l (RemoteCid.r_roff s + Base.lenN (RemoteCid.r_ready s)) rpt). intros q Q.
  lia.
Qed.

(* active_connection_id_limit: F11 *)
Theorem c04_set_limit_cost_refuted : forall c c', 0 <= c -> 0 <= c' ->
  exists n, c * (8 + lc_len lc_init) + c' < lc_set_cost lc_init n /\
            c * (8 + lc_len lc_init) + c' < lc_set_frames lc_init n.
Proof.
  intros c c' Hc Hc'. exists (c * 10 + c' + 3).
  unfold lc_set_cost, lc_set_frames, lc_next, lc_len, lc_init, zlen; cbn [lc_off lc_cells length].
  destruct (Z.ltb_spec (c * 10 + c' + 3) 2); lia.
Qed.

Theorem c04_set_limit_value_bound : forall s n, lc_wf s -> lc_set_cost s n <= Z.max 0 n + 1.
Proof.
  intros s n W. unfold lc_set_cost, lc_set_frames, lc_next, lc_len. pose proof (zlen_nonneg (lc_cells s)).
  unfold lc_wf in W. destruct (n <? 2); lia.
Qed.

Theorem c04_set_limit_cost : forall K s n, lc_wf s -> 0 <= K -> n <= K -> lc_set_cost s n <= K + 1.
Proof. intros K s n W HK Hn. pose proof (c04_set_limit_value_bound s n W). lia. Qed.

Theorem c04_set_limit_cells : forall s n, 2 <= n -> lc_len (lc_set_apply s n) = lc_len s + lc_set_frames s n.
Proof.
  intros s n H. unfold lc_set_apply, lc_set_frames.
  destruct (Z.ltb_spec n 2); [lia|].
  unfold lc_len; cbn [lc_cells]. rewrite zlen_app, zlen_repeat. rewrite Z2Nat.id by lia. reflexivity.
Qed.

Theorem c04_retire_cid_cost : forall s seq, lc_retire_cost s seq <= lc_len s + 2.
Proof.
  intros s seq. unfold lc_retire_cost, lc_retire_advance, lc_len, zlen.
  destruct (lc_retire_hits s seq); [|lia].
  pose proof (lead_none_le (clear_nth (Z.to_nat (seq - lc_off s)) (lc_cells s))) as H.
  rewrite clear_nth_length in H. lia.
Qed.

(* the implicit open creates at most (our own limit + 1) streams, whatever the stream id says *)
Theorem c04_implicit_open_cost : forall d f,
  streams_created d f <=
    Z.of_N (N.max (fst (Sid.r_max (StreamCtl.d_r d))) (snd (Sid.r_max (StreamCtl.d_r d)))) + 1.
Proof.
  intros d f. unfold streams_created.
  destruct (stream_target f) as [[sid side]|]; [|lia].
  destruct (Sid.role_eqb _ _); [lia|].
  destruct (negb side && Sid.dir_eqb (Sid.sid_dir sid) Sid.Uni); [lia|].
  unfold Sid.try_accept_sid.
  set (mx := Sid.pget (Sid.r_max (StreamCtl.d_r d)) (Sid.sid_dir sid)).
  assert (Hmx : (mx <= N.max (fst (Sid.r_max (StreamCtl.d_r d))) (snd (Sid.r_max (StreamCtl.d_r d))))%N).
  { unfold mx, Sid.pget. destruct (Sid.sid_dir sid); lia. }
  destruct (Sid.over_limit false (Sid.sid_idx sid) mx) eqn:O; [lia|].
  unfold Sid.over_limit in O. apply N.ltb_ge in O.
  destruct (Sid.sid_idx sid <? Sid.pget (Sid.r_next (StreamCtl.d_r d)) (Sid.sid_dir sid))%N eqn:L; [lia|].
  cbn [Sid.ctrl_on_accept]. destruct (Sid.apply_up _ _ _ _) as [mx' adv]. unfold Sid.need_create. rewrite range_nat_length. lia.
Qed.

Theorem c04_limits :
  (* MAX_STREAMS above 2^60 - 1 is refused by the parser *)
  (forall u bs f rest, Frames.be_body (FrameTypes.TMaxStreams u) bs = Wire.Ok f rest ->
     match f with Frames.MaxStreams _ v => v <= Frames.MAX_STREAMS_LIMIT | _ => True end) /\
  (* a peer stream whose index is above the limit: STREAM_LIMIT_ERROR, connection failed *)
  (forall d sid off len fin,
     StreamCtl.d_closed d = false -> Sid.role_eqb (Sid.sid_role sid) (StreamCtl.d_role d) = false ->
     (Sid.pget (Sid.r_max (StreamCtl.d_r d)) (Sid.sid_dir sid) < Sid.sid_idx sid)%N ->
     hd 0 (snd (StreamCtl.ds_step StreamCtl.fixed d (StreamCtl.OStream sid off len fin))) = E_STREAM_LIMIT /\
     StreamCtl.d_closed (fst (StreamCtl.ds_step StreamCtl.fixed d (StreamCtl.OStream sid off len fin))) = true) /\
  (* RETIRE_CONNECTION_ID of a sequence number never issued: PROTOCOL_VIOLATION (RFC 9000 19.16), one
     unit, nothing changes *)
  (forall s seq, lc_next s <= seq ->
     lc_retire_err true s seq = E_PROTOCOL_VIOLATION /\ lc_retire_cost s seq = 1 /\ lc_retire_apply s seq = s) /\
  (* NEW_CONNECTION_ID: CONNECTION_ID_LIMIT_ERROR exactly when more than active_connection_id_limit
     connection IDs are active once the frame is processed (RFC 9000 5.1.1); a sequence number below
     the retired prefix is dropped at the first test *)
  (forall s seq rpt s' fr res, rc_discards s seq = false -> rc_recv s seq rpt = (s', fr, res) ->
     ((RemoteCid.r_limit s < RemoteCid.active s')%N ->
        res = RemoteCid.NErrLimit /\ rc_res_err res = E_CONNECTION_ID_LIMIT) /\
     ((RemoteCid.active s' <= RemoteCid.r_limit s)%N -> res = RemoteCid.NAccepted /\ rc_res_err res = E_NONE)) /\
  (forall s seq rpt, (seq < RemoteCid.r_coff s)%N ->
     rc_recv s seq rpt = (s, [], RemoteCid.NDiscarded) /\ rc_new_cost s seq rpt = 1%N /\ rc_new_drv s seq rpt = 0%N) /\
  (* active_connection_id_limit below 2 *)
  (forall s n, n < 2 -> lc_set_err s n = E_TRANSPORT_PARAMETER /\ lc_set_cost s n = 1 /\ lc_set_apply s n = s).
Proof.
  split; [exact p_c04_max_streams_limit|]. split; [exact p_c04_stream_limit|]. split; [exact p_c04_retire_unissued|].
  split; [exact p_c04_new_cid_limit|]. split; [exact p_c04_new_cid_discarded|exact p_c04_set_limit_small].
Qed.

(* F55 (fixed): the code before `fix: RETIRE_CONNECTION_ID for a sequence number never issued is a
   PROTOCOL_VIOLATION` answered with a KIND other than the one RFC 9000 19.16 prescribes *)
Theorem c04_retire_kind_refuted :
  exists s seq, lc_next s <= seq /\ lc_retire_err false s seq <> E_PROTOCOL_VIOLATION.
Proof. exists lc_init, 2. split; [cbn; lia|]. vm_compute. discriminate. Qed.

Example c04_ack_nonvacuous :
  let o := deliver 5 0 (rj_new None) sj5 (mkack 4 0 1 [(0, 1)]) in
  ack_iter (mkack 4 0 1 [(0, 1)]) = Some [(3, 4); (0, 1)] /\ ao_err o = 0 /\ ao_ticks o = 4 /\
  ao_collected o = 4 /\ ao_fed o = 4 /\ ao_cost o = 48.
Proof. vm_compute. repeat split; reflexivity. Qed.

(* the bound of c04_ack_cost really depends on the packets ever sent, not on the tracked window: with
   an empty window at offset 10^6 an ACK of [0, 10^6 - 1] is stepped through number by number
   (replayed on the real code: 640 packets sent, acknowledged and expired, then ACK [0,639]:
   640 controller iterations, 640 numbers collected, window length 1) *)
Example c04_ack_cost_tracks_packets_sent :
  let sj := mksj [] 1000000 [] 0 in
  let o := deliver 1 0 (rj_new None) sj (mkack 999999 0 999999 []) in
  sj_len sj = 0 /\ ao_err o = 0 /\ ao_ticks o = 1000000 /\ ao_collected o = 1000000 /\ 3000000 < ao_cost o.
Proof. vm_compute. repeat split; reflexivity. Qed.

Example c04_f9_witness :
  decode_pn rj01 (U32 65536) = DpnOk 65536 /\ pn_cells rj01 65536 = 65535 /\
  decode_pn rj01 (U32 (2^31 - 1)) = DpnOk (2^31 - 1) /\ pn_cells rj01 (2^31 - 1) = 2^31 - 2.
Proof. vm_compute. repeat split; reflexivity. Qed.

(* limit 2, after NEW_CONNECTION_ID(1, 0):
   - (seq 3000, rpt 3000): accepted, 2998 cells appended, 2999 + 1 RETIRE_CONNECTION_ID frames, 1 active ID;
   - (seq 3000, rpt 0): CONNECTION_ID_LIMIT_ERROR (3 active IDs), but only after 2998 cells were
     appended and the limit check walked all 3001 of them;
   - (seq 2^62-1, rpt 2^62-1): 2^62-3 cells and 2^62-2 frames are asked for (arithmetic only) *)
Example c04_f10_witness :
  let s1 := fst (fst (rc_recv (rc_init 2) 1 0)) in
  (let '(s', fr, res) := rc_recv s1 3000 3000 in
   res = RemoteCid.NAccepted /\ RemoteCid.active s' = 1%N /\ Base.lenN fr = 3000%N /\
   rc_new_cells s1 3000 = 2998%N /\ rc_gap_frames s1 3000 = 2999%N) /\
  (let '(s', fr, res) := rc_recv s1 3000 0 in
   res = RemoteCid.NErrLimit /\ RemoteCid.active s' = 3%N /\ Base.lenN (RemoteCid.r_cids s') = 3001%N /\
   (5998 < rc_new_cost s1 3000 0)%N) /\
  rc_new_drv s1 (2^62 - 1) (2^62 - 1) = (2^62 - 3 + (2^62 - 2))%N.
Proof. vm_compute. repeat split; reflexivity. Qed.

Example c04_f11_witness : lc_set_err lc_init 200000 = 0 /\ lc_set_frames lc_init 200000 = 199998.
Proof. vm_compute. split; reflexivity. Qed.

Print Assumptions c04_ack_cost.
Print Assumptions c04_ack_unsent_rejected.
Print Assumptions c04_ack_negative_rejected.
Print Assumptions c04_parse_error_inert.
Print Assumptions c04_ack_delivered_nonnegative.
Print Assumptions c04_ack_iter_in_range.
Print Assumptions c04_covered_counts_numbers.
Print Assumptions c04_f7_refuted.
Print Assumptions c04_f8_refuted.
Print Assumptions c04_f22_refuted.
Print Assumptions c04_pn_jump_cost_refuted.
Print Assumptions c04_pn_jump_value_bound.
Print Assumptions c04_pn_jump_cost.
Print Assumptions c04_pn_cells.
Print Assumptions c04_new_cid_cost_refuted.
Print Assumptions c04_new_cid_cells.
Print Assumptions c04_new_cid_frames.
Print Assumptions c04_new_cid_value_bound.
Print Assumptions c04_new_cid_cost_lower.
Print Assumptions c04_new_cid_cost.
Print Assumptions c04_retire_prior_cost.
Print Assumptions c04_set_limit_cost_refuted.
Print Assumptions c04_set_limit_value_bound.
Print Assumptions c04_set_limit_cost.
Print Assumptions c04_set_limit_cells.
Print Assumptions c04_retire_cid_cost.
Print Assumptions c04_implicit_open_cost.
Print Assumptions c04_limits.
Print Assumptions c04_retire_kind_refuted.
Print Assumptions c04_ack_nonvacuous.
Print Assumptions c04_ack_cost_tracks_packets_sent.
Print Assumptions c04_f9_witness.
Print Assumptions c04_f10_witness.
Print Assumptions c04_f11_witness.
