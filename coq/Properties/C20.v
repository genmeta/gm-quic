(* C20 (addressable part) — event logging is well-formed: serde schema round trip, mandatory qlog
   fields, well-formedness of the regenerated schema of every qevent type.
   "Never panics for lack of span context" and "same application-visible behaviour with logging on/off" are
   whole-stack properties: they are claimed of the telemetry layer on the receive and the loss path only (the
   c20_log_ theorems at the end), not of the stack.  Only the property theorems live here; each follows in a
   few lines from Proofs/SerdeRT.v (generic model), Proofs/Serde.v (the schema table regenerated from qevent/src) or
   Proofs/QlogSpan.v (the telemetry layer); the witnesses are evaluated where they stand. *)
From Coq Require Import List ZArith Bool NArith String.
From GQ Require Import Model.Serde Generated.QeventSchema Proofs.Serde.
Import ListNotations.
Local Open Scope Z_scope.

(* main theorem: for every well-formed schema and every conforming value, parsing the serialisation
   gives the value back.  `conformsb` = typing + the value-level side conditions (integers in range,
   custom-field keys distinct from schema keys, an untagged alternative's JSON not claimed by an earlier
   alternative, a skipped field comes back from its missing-value (true of every field of the table:
   c20_skips_ok), try_from validators hold (true of everything the builders build: c20_reference_time_builder)). *)
Theorem c20_roundtrip : forall s v, wf s = true -> conformsb s v = true -> de s (ser s v) = Some v.
Proof. exact roundtrip_all. Qed.

(* the regenerated schema of every qevent type is well-formed ... *)
Theorem c20_schema_wf : forall n s, In (n, s) qevent_types -> wf s = true.
Proof. intros n s. exact (proj1 (forallb_forall _ _) p_c20_schema_wf (n, s)). Qed.

(* ... hence the round trip holds for every type of the crate (new and legacy format) *)
Theorem c20_roundtrip_table : forall n s v, In (n, s) qevent_types -> conformsb s v = true ->
  de s (ser s v) = Some v.
Proof. intros n s v H. exact (c20_roundtrip s v (c20_schema_wf n s H)). Qed.

(* the static defects of the schemas are exactly the listed ones: one statically shadowed untagged
   alternative (kind 7 = F51).  No skipped field without missing-value (kind 1 = F50) is left ... *)
Theorem c20_schema_defects : defects_of qevent_types = known_defects.
Proof. vm_compute. reflexivity. Qed.

(* ... indeed, at every depth of every type every skipped field comes back from its missing-value, so the
   clause of `conformsb` about skipped fields holds for every value: empty vectors / maps / None included *)
Theorem c20_skips_ok : forall n s, In (n, s) qevent_types -> skips_ok s = true.
Proof. intros n s. exact (proj1 (forallb_forall _ _) p_c20_skips_ok (n, s)). Qed.

Theorem c20_skip_clause : forall sk d s v, skip_ok sk d s = true -> (skip_ok sk d s || negb (skipped sk v)) = true.
Proof. intros sk d s v ->. reflexivity. Qed.

(* every serialised Event carries the mandatory qlog fields, in both formats; group_id whenever set *)
Theorem c20_mandatory : forall v, conformsb event_schema v = true ->
  has_key (k "time") (ser event_schema v) /\ has_key (k "name") (ser event_schema v) /\ has_key (k "data") (ser event_schema v).
Proof. intros v. apply mandatory_generic. reflexivity. Qed.

Theorem c20_mandatory_legacy : forall v, conformsb legacy_event_schema v = true ->
  has_key (k "time") (ser legacy_event_schema v) /\ has_key (k "name") (ser legacy_event_schema v)
  /\ has_key (k "data") (ser legacy_event_schema v).
Proof. intros v. apply mandatory_generic. reflexivity. Qed.

(* group_id is the 5th regular field of Event (skipped exactly when None) *)
Theorem c20_group_id : forall t p tf pt g si fl ex,
  let v := VStruct [t; p; tf; pt; g; si] fl ex in
  conformsb event_schema v = true -> g <> VNone -> has_key (k "group_id") (ser event_schema v).
Proof.
  intros t p tf pt g si fl ex v C G. apply struct_has_key. left.
  do 4 apply field_key_later. apply field_key_here. destruct g; try reflexivity. destruct (G eq_refl).
Qed.

(* F50 (repaired): the former witnesses (packets_acked without numbers, an ordinary packet_sent) conform
   and round-trip ... *)
Theorem c20_f50_repaired :
  (conformsb T_quic_transport_PacketsAcked w_f50 = true
   /\ de T_quic_transport_PacketsAcked (ser T_quic_transport_PacketsAcked w_f50) = Some w_f50)
  /\ (conformsb T_quic_transport_PacketSent w_f50_sent = true
      /\ de T_quic_transport_PacketSent (ser T_quic_transport_PacketSent w_f50_sent) = Some w_f50_sent).
Proof. vm_compute. repeat split. Qed.

(* ... and on the shapes as they were (the same schemas without the missing-value of the field) they are
   refused: what a regression of the repair looks like *)
Theorem c20_f50_was_refuted :
  (wf PacketsAcked_was = true /\ skips_ok PacketsAcked_was = false /\ conformsb PacketsAcked_was w_f50 = false
   /\ de PacketsAcked_was (ser PacketsAcked_was w_f50) = None)
  /\ (wf PacketSent_was = true /\ skips_ok PacketSent_was = false /\ conformsb PacketSent_was w_f50_sent = false
      /\ de PacketSent_was (ser PacketSent_was w_f50_sent) = None).
Proof. vm_compute. repeat split. Qed.

(* F52 (repaired): whatever well-typed field values the ReferenceTime builder is given (any clock type, any
   epoch, set or defaulted), the value it builds satisfies the type's validator and parses back *)
Theorem c20_reference_time_builder : forall v, conformsb ReferenceTime_fields v = true ->
  conformsb T_ReferenceTime (build T_ReferenceTime v) = true
  /\ de T_ReferenceTime (ser T_ReferenceTime (build T_ReferenceTime v)) = Some (build T_ReferenceTime v).
Proof. exact p_c20_reference_time_builder. Qed.

Theorem c20_f52_repaired :
  conformsb ReferenceTime_fields w_f52 = true /\ build T_ReferenceTime w_f52 = w_f52_built
  /\ de T_ReferenceTime (ser T_ReferenceTime (build T_ReferenceTime w_f52)) = Some w_f52_built.
Proof. vm_compute. repeat split. Qed.

(* with the builder as it was (stores the epoch it is given / its default) the built value is refused *)
Theorem c20_f52_was_refuted :
  wf ReferenceTime_was = true /\ build ReferenceTime_was w_f52 = w_f52
  /\ conformsb ReferenceTime_was (build ReferenceTime_was w_f52) = false
  /\ de ReferenceTime_was (ser ReferenceTime_was (build ReferenceTime_was w_f52)) = None.
Proof. vm_compute. repeat split. Qed.

(* the full-strength statement (all values the builders can produce) is still false: two witnesses (F51, F53),
   each outside `conformsb`, each replayed on the real crate (corpus/C20/qevent/f51*.case, f53*.case) *)
Theorem c20_roundtrip_refuted :
  (conformsb T_quic_connectivity_ConnectionState w_f51 = false
      /\ de T_quic_connectivity_ConnectionState (ser T_quic_connectivity_ConnectionState w_f51) = Some (VEnum 0 (VEnum 3 VUnit)))
  /\ (conformsb event_schema w_f53 = false /\ rt_fails event_schema w_f53 = true
      /\ de event_schema (canon (ser event_schema w_f53)) = None).
Proof. vm_compute. repeat split. Qed.

(* non-vacuity: a packet_sent Event (header, stream/ack/handshake_done frames, versions, path, protocol
   types, group id, one custom field) conforms, round-trips, and shows the expected top-level keys *)
Example c20_nonvacuous :
  wf event_schema = true /\ conformsb event_schema w_event = true
  /\ de event_schema (ser event_schema w_event) = Some w_event
  /\ map fst (members (canon (ser event_schema w_event))) =
     [k "data"; k "group_id"; k "name"; k "path"; k "protocol_types"; k "time"; k "to_router"].
Proof. vm_compute. repeat split. Qed.

(* The telemetry layer as the transport drives it (Model/QlogSpan.v; proofs in Proofs/QlogSpan.v): the receive
   path of read_plain_packet and the loss path of may_loss on arbitrary payload bytes, under every exporter
   (no span, no-op logger, channel, filtering exporter, file logger) and every lifetime of the receiver. *)
From GQ Require Import Model.QlogSpan Proofs.QlogSpan.

(* logging never panics: for every exporter state (receiver alive or gone), scheme, path, packet type and payload
   the packet is processed and observed; the crash outcome of the model (an underflowing subtraction of the ACK
   range walk) is unreachable because the frame reader only delivers ACK frames that pass AckFrame::is_valid *)
Theorem c20_log_never_panics : forall s scheme with_data p bs, exists app log, packet s scheme with_data p bs = Obs app log.
Proof. intros s scheme wd p bs. destruct (packet_obs s scheme wd p bs) as (l & _ & ->). eauto. Qed.

Theorem c20_log_history_never_panics : forall ops s site, ~ In [-98; Z.of_N site] (run_from s ops).
Proof.
  induction ops as [|op r IH]; intros s site; cbn [run_from]; [intros []|].
  pose proof (step_no_crash s op site) as H. destruct (step s op) as [s' o]. cbn [snd] in H.
  intros [E|E]; [exact (H E)|exact (IH _ _ E)].
Qed.

(* every frame the reader delivers converts (all 62-bit field values: narrowing truncates) ... *)
Theorem c20_log_conv_total : forall raw with_data f, frame_valid f -> exists q, conv raw with_data f = QOk q.
Proof. exact p_c20_conv_total. Qed.

Theorem c20_log_reader_valid : forall p bs c f t, be_frame p bs = FOk c f t -> frame_valid f.
Proof. exact be_frame_valid. Qed.

(* ... and the validity check is needed: on an ACK the reader refuses, the conversion as coded underflows *)
Theorem c20_log_conv_needs_valid :
  conv false true (Ack 0 0 1 [] None) = QPanic 1 /\ conv false true (Ack 5 0 0 [(4, 0)] None) = QPanic 2.
Proof. split; reflexivity. Qed.

(* purely observational: what the dispatcher is handed is the frame reader's output, the same under any two
   exporter states, schemes and paths *)
Theorem c20_log_observational : forall s1 s2 sc1 sc2 wd1 wd2 p bs a1 l1 a2 l2,
  packet s1 sc1 wd1 p bs = Obs a1 l1 -> packet s2 sc2 wd2 p bs = Obs a2 l2 ->
  a1 = a2 /\ a1 = print_all (frames_of (ptype_of p) bs).
Proof.
  intros s1 s2 sc1 sc2 wd1 wd2 p bs a1 l1 a2 l2 H1 H2.
  exact (conj (p_c20_same_behaviour _ _ _ _ _ _ _ _ _ _ _ _ H1 H2) (p_c20_observational _ _ _ _ _ _ _ H1)).
Qed.

(* filtered, disabled, nobody listening, malformed payload: nothing reaches anybody *)
Theorem c20_log_silent : forall s scheme with_data p bs app log,
  packet s scheme with_data p bs = Obs app log ->
  passes s scheme = false \/ visible s = false \/ oks (frames_of (ptype_of p) bs) = None -> log = [0].
Proof.
  intros s scheme wd p bs app log. destruct (packet_obs s scheme wd p bs) as (l & _ & ->). intros [= _ <-] [-> | [-> | ->]];
    rewrite ?andb_false_r; reflexivity.
Qed.

Theorem c20_log_disabled : forall s scheme, kind s = 0 \/ kind s = 1 -> passes s scheme = false.
Proof. intros s scheme. unfold passes. intros [E|E]; rewrite E; reflexivity. Qed.

(* passed and listened to: exactly one event, with the span's group id, that parses back, carrying the collected frames *)
Theorem c20_log_delivered : forall s scheme with_data p bs app log,
  packet s scheme with_data p bs = Obs app log -> passes s scheme = true -> visible s = true ->
  oks (frames_of (ptype_of p) bs) <> None ->
  exists frames, collect (wants_raw s) with_data [] (seen (frames_of (ptype_of p) bs)) = COk frames /\
                 log = ([1; b2z (group_present s); 1; zlen frames] ++ List.concat frames)%list.
Proof.
  intros s scheme wd p bs app log. destruct (packet_obs s scheme wd p bs) as (l & El & ->). intros [= _ <-] -> -> O.
  exists l. split; [exact El|]. destruct (oks _); [reflexivity|now elim O].
Qed.

(* the fields qlog defines as uint32 hold the low 32 bits of the 62-bit wire value *)
Theorem c20_log_narrowed : forall raw wd s e fs seq rpt cid tok c r,
  conv raw wd (ResetStream s e fs) = QOk [3; s / 4; u32 e; fs] /\
  conv raw wd (StopSending s e) = QOk [4; s / 4; u32 e] /\
  conv raw wd (NewConnectionId seq rpt cid tok) = QOk [14; u32 seq; u32 rpt; zlen cid] /\
  conv raw wd (RetireConnectionId seq) = QOk [15; u32 seq] /\
  conv raw wd (CloseApp c r) = QOk [18; 1; u32 c; -1] /\
  0 <= u32 e < 2 ^ 32 /\ 0 <= u32 seq < 2 ^ 32 /\ 0 <= u32 rpt < 2 ^ 32 /\ 0 <= u32 c < 2 ^ 32.
Proof. repeat split; try reflexivity; apply u32_range. Qed.

(* non-vacuity: RESET_STREAM(stream 55, error 2^62 - 1, final size 16384) declared lost under a filtering exporter
   that passes packet_lost: logged with error_code 2^32 - 1; after the receiver is gone the same packet is
   processed identically and nothing is delivered; under no exporter likewise *)
Example c20_log_nonvacuous :
  run_qlog [] [(0%N, [3; 7; 0]); (3%N, [3; 1; 4; 55; 255; 255; 255; 255; 255; 255; 255; 255; 128; 0; 64; 0]);
               (1%N, []); (3%N, [3; 1; 4; 55; 255; 255; 255; 255; 255; 255; 255; 255; 128; 0; 64; 0]);
               (0%N, [0; 0; 0]); (2%N, [3; 1; 4; 55; 255; 255; 255; 255; 255; 255; 255; 255; 128; 0; 64; 0])]
  = [[3]; [0; 14; 4; -7; 1; 0; 1; 1; 3; 13; 4294967295; 16384]; []; [0; 14; 4; -7; 0]; [0]; [0; 14; 4; -7; 0]].
Proof. vm_compute. reflexivity. Qed.

Print Assumptions c20_roundtrip.
Print Assumptions c20_schema_wf.
Print Assumptions c20_roundtrip_table.
Print Assumptions c20_schema_defects.
Print Assumptions c20_skips_ok.
Print Assumptions c20_skip_clause.
Print Assumptions c20_f50_repaired.
Print Assumptions c20_f50_was_refuted.
Print Assumptions c20_reference_time_builder.
Print Assumptions c20_f52_repaired.
Print Assumptions c20_f52_was_refuted.
Print Assumptions c20_mandatory.
Print Assumptions c20_mandatory_legacy.
Print Assumptions c20_group_id.
Print Assumptions c20_roundtrip_refuted.
Print Assumptions c20_nonvacuous.
Print Assumptions c20_log_never_panics.
Print Assumptions c20_log_history_never_panics.
Print Assumptions c20_log_conv_total.
Print Assumptions c20_log_reader_valid.
Print Assumptions c20_log_conv_needs_valid.
Print Assumptions c20_log_observational.
Print Assumptions c20_log_silent.
Print Assumptions c20_log_disabled.
Print Assumptions c20_log_delivered.
Print Assumptions c20_log_narrowed.
Print Assumptions c20_log_nonvacuous.
