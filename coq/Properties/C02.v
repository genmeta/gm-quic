(* C02 — a connection survives an adversarial network without corrupting data.
   What is PROVED here: (1) the history monitor of Model/C02Monitor.v is sound — a history it
   accepts satisfies the safety predicates of the property (and, in `live` mode, the delivery
   clause of the bounded-fault profile); (2) two composition statements over an abstract packet
   layer under the ideal-AEAD Section hypothesis.  What is only CHECKED (by ./check C02): that
   histories recorded from the real dquic endpoints under seeded network faults are accepted by
   the extracted monitor.  TLS, AEAD, tokio and the stack itself are not modelled (label: partial).
   Only the property theorems live here; the lemmas they rest on are in Proofs/C02*.v. *)
From Coq Require Import List NArith ZArith Bool Permutation.
From GQ Require Import Lib.Base Model.C02Monitor Proofs.C02Monitor Model.C02Packets Proofs.C02Packets.
Import ListNotations.
Local Open Scope N_scope.

(* for every stream, direction and prefix h1 of an accepted history: what the receiving application
   read is a prefix of what the sending application wrote; end-of-stream only after all bytes, only
   after the writer's shutdown, and nothing is written afterwards *)
Theorem c02_monitor_sound_streams : forall live B h, monitor live B h = true ->
  forall h1 h2, h = h1 ++ h2 -> forall r sid,
    (exists rest, writes h1 (other r) sid = reads h1 r sid ++ rest) /\
    (eos_in h1 r sid = true ->
       reads h1 r sid = writes h1 (other r) sid /\ shutdown_in h1 (other r) sid = true /\
       writes h2 (other r) sid = []).
Proof.
  intros live B h H h1 h2 -> r sid. destruct (monitor_parts _ _ _ H) as (_ & S & _).
  apply p_streams_prefix; exact S.
Qed.

(* every datagram read was sent by the peer before, unchanged; and never more often than sent *)
Theorem c02_monitor_sound_datagrams : forall live B h, monitor live B h = true ->
  (forall h1 r bs h2, h = h1 ++ DgramRecv r bs :: h2 -> In bs (dsent h1 (other r))) /\
  (forall r, r < 2 -> exists rest, Permutation (dsent h (other r)) (drecv h r ++ rest)).
Proof.
  intros live B h H. destruct (monitor_parts _ _ _ H) as (Si & _ & D & _).
  assert (R : forall r, r < 2 -> exists out, run (dgram_step r) [] h 0 = inl out).
  { intros r Hr. apply accepted_inl, (both_sides (fun r => accepted (dgram_run h r)) D r Hr). }
  split.
  - intros h1 r bs h2 ->. destruct (R r) as [out Ro]; [|exact (dgram_run_recv _ _ _ _ _ _ Ro)].
    apply (simple_side _ (DgramRecv r bs) r Si); [apply in_or_app; right; left|]; reflexivity.
  - intros r Hr. destruct (R r Hr) as [out Ro]. exists out. exact (dgram_run_perm _ _ _ _ _ Ro).
Qed.

(* no panic, no stall, no transport-error termination; once an application is told the connection
   ended (at te), every operation of that application returns within B virtual ms *)
Theorem c02_monitor_sound_termination : forall live B h, monitor live B h = true ->
  (forall s, ~ In (Panic s) h) /\ (forall t, ~ In (Stall t) h) /\
  (forall s k t, In (ConnError s k t) h -> k < 2) /\
  (forall s te, first_err h s = Some te ->
     forall id ts, In (OpPending s id ts) h ->
     exists res tc, In (OpCompleted s id res tc) h /\ tc <= N.max te ts + B).
Proof.
  intros live B h H. destruct (monitor_parts _ _ _ H) as (Si & _ & _ & _ & T & _).
  pose proof (simple_event_ok _ Si) as Ev.
  split; [intros s I; apply Ev in I; discriminate|].
  split; [intros t I; apply Ev in I; discriminate|].
  split.
  - intros s k t I. apply Ev in I. cbn in I. apply andb_true_iff in I. apply N.ltb_lt, I.
  - intros s te Fe id ts I. apply (p_term_side B h s); [|exact Fe|exact I].
    apply (both_sides (fun s => term_end_ok (term_run B h s)) T).
    exact (simple_side _ _ _ Si I eq_refl).
Qed.

(* no data-bearing event after `closed` *)
Theorem c02_monitor_sound_closed : forall live B h, monitor live B h = true ->
  forall h1 s t h2, h = h1 ++ Closed s t :: h2 -> forall e, In e h2 -> data_event_of s e = false.
Proof.
  intros live B h H h1 s t h2 ->. destruct (monitor_parts _ _ _ H) as (Si & _ & _ & C & _).
  assert (Hs : s < 2).
  { apply (simple_side _ (Closed s t) s Si); [apply in_or_app; right; left|]; reflexivity. }
  apply (both_sides (fun s => accepted (closed_run _ s)) C), accepted_inl in Hs. destruct Hs as [c Hc].
  exact (closed_run_after _ _ _ _ _ _ _ Hc).
Qed.

(* bounded-fault profile: the handshake completed on both sides and everything was delivered *)
Theorem c02_monitor_sound_liveness : forall B h, monitor true B h = true ->
  (exists t, In (ConnEstablished 0 t) h) /\ (exists t, In (ConnEstablished 1 t) h) /\
  forall r sid, r < 2 ->
    reads h r sid = writes h (other r) sid /\
    (shutdown_in h (other r) sid = true -> eos_in h r sid = true).
Proof.
  intros B h H. destruct (monitor_parts _ _ _ H) as (_ & S & _ & _ & _ & L). specialize (L eq_refl).
  pose proof L as L'. unfold live_ok in L'. apply andb_true_iff in L'. destruct L' as [E _].
  apply andb_true_iff in E as [E0 E1].
  split; [apply has_established_in; exact E0|]. split; [apply has_established_in; exact E1|].
  intros r sid Hr. apply p_live; assumption.
Qed.

(* composition over abstract packets, ideal AEAD as hypothesis: whatever the network delivers … *)
Theorem c02_no_forgery : forall (pkt frame : Type) (open : pkt -> option (N * list frame)) (sent : list (N * list frame)),
  (forall p x, open p = Some x -> In x sent) ->
  forall delivered f, In f (dispatched pkt frame open delivered) -> exists pn fs, In (pn, fs) sent /\ In f fs.
Proof.
  intros pkt frame open sent ideal_aead delivered f H. unfold dispatched in H. apply in_concat in H.
  destruct H as (fs & H1 & H2). apply in_map_iff in H1. destruct H1 as ([pn fs'] & E & H1).
  cbn in E. subst fs'. exists pn, fs. split; [|exact H2].
  destruct (recv_all_spec _ _ _ _ ideal_aead delivered []) as (I & _ & _). apply I. exact H1.
Qed.

Theorem c02_no_replay : forall (pkt frame : Type) (open : pkt -> option (N * list frame)) (sent : list (N * list frame)),
  (forall p x, open p = Some x -> In x sent) ->
  forall delivered, NoDup (map fst (processed pkt frame open delivered)) /\ incl (processed pkt frame open delivered) sent.
Proof. exact p_c02_no_replay. Qed.

(* non-vacuity: a history with two streams in both directions, chunked and interleaved reads, a datagram,
   operations pending across a termination, and damaged variants of the same history *)
Definition good : list ev :=
  [ OpPending 0 1 0; OpPending 1 2 0; ConnEstablished 1 15; OpCompleted 1 2 0 15;
    ConnEstablished 0 20; OpCompleted 0 1 0 20;
    OpPending 1 3 20;                                   (* server: accept loop, pending until the end *)
    AppWrite 0 0 [1;2;3]%Z; AppWrite 0 0 [4;5]%Z; AppRead 1 0 [1;2]%Z; AppWrite 1 0 [9;8]%Z;
    DgramSend 0 [7;7]%Z; AppShutdown 0 0; AppRead 1 0 [3;4;5]%Z; AppEos 1 0;
    AppRead 0 0 [9]%Z; DgramRecv 1 [7;7]%Z; AppWrite 1 3 [6]%Z; AppShutdown 1 0; AppRead 0 0 [8]%Z; AppEos 0 0;
    AppShutdown 1 3; AppRead 0 3 [6]%Z; AppEos 0 3;
    OpPending 0 4 90; ConnError 0 0 100; Closed 0 100; OpCompleted 0 4 1 101;
    ConnError 1 0 130; Closed 1 130; OpCompleted 1 3 1 131 ].

Definition replace_nth (n : nat) (e : ev) (h : list ev) : list ev := firstn n h ++ e :: skipn (S n) h.

Example c02_monitor_nonvacuous :
  monitor true 1000 good = true /\
  verdict true 1000 good = [1; 31; 0]%Z /\
  (* a bit flipped in a delivered byte *)
  verdict false 1000 (replace_nth 13 (AppRead 1 0 [3;4;4]%Z) good) = [0; 13; 1]%Z /\
  (* bytes delivered twice (replayed) *)
  verdict false 1000 (replace_nth 13 (AppRead 1 0 [1;2]%Z) good) = [0; 13; 1]%Z /\
  (* end-of-stream before the last bytes *)
  verdict false 1000 (replace_nth 13 (AppEos 1 0) good) = [0; 13; 1]%Z /\
  (* a datagram nobody sent *)
  verdict false 1000 (replace_nth 16 (DgramRecv 1 [7;6]%Z) good) = [0; 16; 2]%Z /\
  (* an operation told too late / never told *)
  verdict false 10 (replace_nth 30 (OpCompleted 1 3 1 1131) good) = [0; 30; 3]%Z /\
  verdict false 1000 (firstn 30 good) = [0; 30; 6]%Z /\
  (* data after closed *)
  verdict false 1000 (good ++ [AppRead 0 3 []]) = [0; 31; 4]%Z /\
  (* a panic, a stall, a transport-error termination *)
  verdict false 1000 (Panic 2 :: good) = [0; 0; 5]%Z /\
  verdict false 1000 (good ++ [Stall 5000]) = [0; 31; 5]%Z /\
  verdict false 1000 (replace_nth 25 (ConnError 0 12 100) good) = [0; 25; 5]%Z /\
  (* bounded profile: a byte written but never delivered *)
  verdict true 1000 (replace_nth 22 (Bad) good) = [0; 22; 5]%Z /\
  verdict true 1000 (AppWrite 1 7 [1]%Z :: good) = [0; 32; 7]%Z.
Proof. vm_compute. repeat split. Qed.

(* the ideal-AEAD hypothesis is satisfiable and the composition is not vacuous: packets are
   (pn, frames) or garbage; the network duplicates, reorders and injects garbage *)
Example c02_packets_nonvacuous :
  let sent := [(0, [10; 11]); (1, [12]); (2, [13])] in
  let open (p : option (N * list N)) :=
    match p with Some x => if existsb (fun y => (fst y =? fst x) && (lenN (snd y) =? lenN (snd x))) sent then
                             find (fun y => fst y =? fst x) sent else None | None => None end in
  let delivered := [Some (1, [12]); None; Some (1, [12]); Some (0, [10; 11]); Some (9, [99]); Some (0, [10; 11]); Some (1, [12])] in
  processed _ _ open delivered = [(1, [12]); (0, [10; 11])] /\ dispatched _ _ open delivered = [12; 10; 11].
Proof. vm_compute. split; reflexivity. Qed.

Print Assumptions c02_monitor_sound_streams.
Print Assumptions c02_monitor_sound_datagrams.
Print Assumptions c02_monitor_sound_termination.
Print Assumptions c02_monitor_sound_closed.
Print Assumptions c02_monitor_sound_liveness.
Print Assumptions c02_no_forgery.
Print Assumptions c02_no_replay.
Print Assumptions c02_monitor_nonvacuous.
Print Assumptions c02_packets_nonvacuous.
