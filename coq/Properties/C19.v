(* C19 — datagrams are carried whole, within the peer's size limit, or not at all.
   Only the property theorems live here (resting on lemmas of Proofs/Datagram.v, DatagramReads.v, DatagramSources.v).
   The model is the REPAIRED qdatagram (send_bytes checks the length form of the frame, finding F35 fixed).

   c19_offered holds for every source list containing the datagram source, and the list regenerated from
   Components::packages contains it (finding F21 fixed). *)
From Coq Require Import List NArith ZArith Bool Lia.
From GQ Require Import Lib.Base Lib.VarintN Model.Datagram Model.DatagramSources
                       Proofs.Datagram Proofs.DatagramSources Proofs.DatagramReads.
Import ListNotations.
Local Open Scope N_scope.

(* refused iff the largest frame the loader can build for it (the length form, 1 + varint(len) + len) does not fit
   the peer's max_datagram_frame_size (0 = disabled: everything is refused); an accepted datagram is appended to the
   queue, a refused one changes nothing *)
Theorem c19_refuse : forall s d,
  wq s <> None -> lenN d < VARINT_MAX ->
  (snd (send s d) = SendOk <-> 1 + varint_size (lenN d) + lenN d <= peer_max s) /\
  (snd (send s d) = SendOk -> wq (fst (send s d)) = option_map (fun q => q ++ [d]) (wq s)) /\
  (snd (send s d) <> SendOk -> fst (send s d) = s).
Proof. intros s d Ho _. exact (p_c19_refuse s d Ho). Qed.

(* for every operation list from the initial state (single loads and repeated loads into one packet): the payloads
   put on the wire, one DATAGRAM frame per successful load, are a prefix of the accepted datagrams in the order sent (never split, never merged,
   never reordered); while the connection is open the rest is exactly the outgoing queue *)
Theorem c19_whole : forall pm lm ops s' outs,
  Forall op_short ops ->
  dg_execs (dg_init pm lm) ops = (s', outs) ->
  prefix (wired outs) (accepted ops outs) /\
  (forall q', wq s' = Some q' -> wired outs ++ q' = accepted ops outs).
Proof.
  intros pm lm ops s' outs Hops E. destruct (run_acts _ _ _ _ E) as (_ & _ & W).
  apply (qstep_fifo []), W; [| apply accepted_short, Hops]. intros q [= <-]. constructor.
Qed.

(* for every remaining-space value: no unwrap/put-past-the-end is reachable, the load is declined iff not
   even the payload plus one byte fits, the chosen form fits, the no-length form fills the packet exactly,
   the length form is chosen iff it fits, and the payload is the datagram *)
Theorem c19_fits : forall remaining d, lenN d < VARINT_MAX ->
  let r := load_choice remaining d in
  (forall site, r <> LPanic site) /\
  (r = LNoRoom <-> remaining <= lenN d) /\
  lenN (wire_bytes r) <= remaining /\
  (forall npad d', r = LFrame false npad d' -> lenN (wire_bytes r) = remaining) /\
  (forall wl npad d', r = LFrame wl npad d' ->
     d' = d /\ (wl = true <-> 1 + varint_size (lenN d) + lenN d <= remaining)).
Proof.
  intros remaining d Hlen r. subst r. rewrite (load_choice_eq _ _ Hlen).
  pose proof (varint_size_bounds (lenN d)) as Hvs.
  destruct (N.leb_spec remaining (lenN d)) as [Hr | Hr];
    [| destruct (N.leb_spec (1 + varint_size (lenN d) + lenN d) remaining) as [Hw | Hw]];
    rewrite ?wire_bytes_length; unfold frame_hdr_size; (split; [discriminate |]).
  - (* declined *)
    split; [tauto |]. split; [exact (N.le_0_l remaining) |]. split; discriminate.
  - (* the length form *)
    split; [split; [discriminate | lia] |]. split; [lia |]. split; [discriminate |].
    intros wl npad d' [= <- <- <-]. tauto.
  - (* padding and the form without length *)
    split; [split; [discriminate | lia] |]. split; [lia |]. split; [intros; lia |].
    intros wl npad d' [= <- <- <-]. split; [reflexivity | split; [discriminate | lia]].
Qed.

(* the bytes of every successful load re-parse (FrameReader) to npad PADDING frames and exactly ONE DATAGRAM frame
   whose payload is the datagram, in either form; delivering them hands exactly that frame to the incoming side *)
Theorem c19_roundtrip : forall wl npad d,
  lenN d < VARINT_MAX -> parse (wire_bytes (LFrame wl npad d)) = (true, npad, [PDatagram wl d]).
Proof.
  intros wl npad d Hl. unfold parse. cbn [wire_bytes].
  set (k := N.to_nat npad).
  assert (Hlen : (S (length (repeat 0%Z k ++ frame_bytes wl d)) = k + S (length (frame_bytes wl d)))%nat)
    by (rewrite app_length, repeat_length; lia).
  rewrite Hlen, parse_frames_pad.
  rewrite parse_frame_bytes; [| exact Hl |].
  - f_equal. f_equal. unfold k. lia.
  - unfold frame_bytes. destruct wl; cbn [app length]; lia.
Qed.

Theorem c19_deliver_one : forall s wl npad d,
  lenN d < VARINT_MAX ->
  deliver_bytes s (wire_bytes (LFrame wl npad d)) =
    (fst (recv_datagram s wl d), (true, npad, [snd (recv_datagram s wl d)])).
Proof.
  intros s wl npad d Hl. unfold deliver_bytes. rewrite (c19_roundtrip wl npad d Hl).
  cbn [recv_all]. destruct (recv_datagram s wl d) as [s1 r]. reflexivity.
Qed.

(* for every operation list: what the application reads is, in order, a prefix of what the incoming side accepted
   (the frames FrameReader finds in each delivered packet that pass the local limit), and while the connection is open
   the rest is exactly the incoming queue - nothing is reordered, duplicated or lost between recv_frame and the reader *)
Theorem c19_reads_in_order : forall pm lm ops s' outs,
  dg_execs (dg_init pm lm) ops = (s', outs) ->
  prefix (reads outs) (arrivals lm ops outs) /\
  (forall q', rq s' = Some q' -> reads outs ++ q' = arrivals lm ops outs).
Proof. intros pm lm ops s' outs E. destruct (run_acts _ _ _ _ E) as (_ & R & _). exact (qstep_fifo [] _ _ _ R). Qed.

(* a delivered load contributes exactly its datagram if the frame is within the local maximum, and nothing otherwise *)
Theorem c19_arrival_single : forall lm wl npad d,
  lenN d < VARINT_MAX ->
  pushed lm (frames (wire_bytes (LFrame wl npad d))) =
    if lm <? frame_hdr_size wl (lenN d) + lenN d then [] else [d].
Proof.
  intros lm wl npad d Hl. unfold frames. rewrite (c19_roundtrip wl npad d Hl). cbn [snd].
  unfold pushed. cbn [filter fits_local]. destruct (lm <? frame_hdr_size wl (lenN d) + lenN d); reflexivity.
Qed.

(* a received DATAGRAM frame larger than the local maximum is a ProtocolViolation and leaves the state
   unchanged; any other frame is queued for the application *)
Theorem c19_recv_limit : forall s wl d q,
  rq s = Some q ->
  (local_max s < frame_hdr_size wl (lenN d) + lenN d ->
     recv_datagram s wl d = (s, RecvViolation)) /\
  (frame_hdr_size wl (lenN d) + lenN d <= local_max s ->
     snd (recv_datagram s wl d) = RecvOk /\ rq (fst (recv_datagram s wl d)) = Some (q ++ [d])).
Proof.
  intros s wl d q Hq. unfold recv_datagram. rewrite Hq.
  destruct (N.ltb_spec (local_max s) (frame_hdr_size wl (lenN d) + lenN d)) as [H | H].
  - split; [reflexivity | lia].
  - split; [lia | intros _; split; reflexivity].
Qed.

(* whatever form the loader chooses, the frame emitted for an accepted datagram is within the peer's limit *)
Theorem c19_wire_limit : forall s d wl,
  wq s <> None -> lenN d < VARINT_MAX -> snd (send s d) = SendOk ->
  lenN (frame_bytes wl d) <= peer_max s.
Proof. intros s d wl Ho _. exact (p_c19_wire_limit s d wl Ho). Qed.

(* if the datagram source is among the sources of a space, an accepted datagram is put on the wire as soon
   as a packet of that space has room for it *)
Theorem c19_offered : forall srcs s d q rem,
  In SrcDatagram srcs ->
  wq s = Some (d :: q) -> lenN d < VARINT_MAX -> lenN d < rem ->
  exists rest, emitted (snd (assemble_sources srcs s rem)) = d :: rest.
Proof.
  induction srcs as [| x tl IH]; intros s d q rem Hin Hq Hd Hr; [destruct Hin |].
  destruct x; cbn [assemble_sources];
    try (apply (IH s d q rem); [destruct Hin as [E | Hin]; [discriminate | exact Hin] | assumption ..]).
  destruct (load_head s d q rem Hq Hd Hr) as (wl & npad & El). rewrite El.
  destruct (assemble_sources tl _ _) as [s2 rs]. cbn [snd emitted flat_map app]. eauto.
Qed.

(* the datagram queue IS among the packet sources regenerated from Components::packages (the repaired
   code: finding F21, "accepted datagrams are never offered to the assembler", is fixed), so c19_offered
   applies to the 1-RTT and 0-RTT spaces of the real source table *)
Theorem c19_offered_table :
  In SrcDatagram (sources SpOneRtt) /\ In SrcDatagram (sources SpZeroRtt) /\ (1 <= datagram_package_impls)%nat.
Proof. vm_compute; intuition. Qed.

(* non-vacuity: sizes around the limit, both forms, padding, loss, FIFO order, repeated loads into one packet,
   a frame over the local limit *)
Example c19_nonvacuous :
  let ops := [DSend (slice content 0 9); DSend (slice content 20 10); DSend (slice content 40 3); DSend (slice content 50 0);
              DLoad 9 true; DLoad 12 false; DLoad 12 true; DRead; DLoad 4 true; DLoad 1 true; DRead; DRead; DRead;
              DSend (slice content 60 2); DSend (slice content 70 2); DSend (slice content 80 2); DLoadAll 11 true;
              DRead; DRead; DRead; DRead;
              DRecvFrame true (slice content 0 10); DRecvFrame false (slice content 0 10); DRead] in
  let '(s, outs) := dg_execs (dg_init 11 11) ops in
  accepted ops outs = [slice content 0 9; slice content 40 3; slice content 50 0;
                       slice content 60 2; slice content 70 2; slice content 80 2] /\
  wired outs = accepted ops outs /\ wq s = Some [] /\
  map (fun o => match o with ORead (ReadSome d) => lenN d | _ => 99 end)
      (filter (fun o => match o with ORead _ => true | _ => false end) outs) = [3; 0; 99; 99; 2; 2; 2; 99; 10].
Proof. vm_compute. repeat split; reflexivity. Qed.

Print Assumptions c19_refuse.
Print Assumptions c19_whole.
Print Assumptions c19_fits.
Print Assumptions c19_roundtrip.
Print Assumptions c19_deliver_one.
Print Assumptions c19_reads_in_order.
Print Assumptions c19_arrival_single.
Print Assumptions c19_recv_limit.
Print Assumptions c19_wire_limit.
Print Assumptions c19_offered.
Print Assumptions c19_offered_table.
Print Assumptions c19_nonvacuous.
