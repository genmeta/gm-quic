(* C08 — the receive buffer reassembles any fragment sequence into the original bytes.
   Only the property theorems live here: each follows in a few lines from the lemmas of
   Proofs/RecvBuf.v, and its assumptions are printed for the audit. *)
From Coq Require Import List NArith ZArith.
From GQ Require Import Lib.Base Model.RecvBuf Proofs.RecvBuf.
Import ListNotations.
Local Open Scope N_scope.

Theorem c08_inv : forall c ops b outs, reach c ops b outs -> Inv c b.
Proof. intros. eapply reach_spec; eassumption. Qed.

Theorem c08_read_prefix : forall c ops b outs, reach c ops b outs ->
  bytes_of outs = slice c 0 (nread b).
Proof. intros. eapply reach_spec; eassumption. Qed.

Theorem c08_coverage : forall c ops b outs, reach c ops b outs ->
  forall i, covered b i <-> arrived ops i.
Proof. intros. eapply reach_spec; eassumption. Qed.

Theorem c08_fresh_sum : forall c ops b outs, reach c ops b outs ->
  fresh_of outs = max_end ops /\ largest b = max_end ops.
Proof. intros. eapply reach_spec; eassumption. Qed.

(* a read in any reachable state returns exactly the arrived contiguous prefix, cut to the room *)
Theorem c08_read_exact : forall c ops b outs room b' out,
  reach c ops b outs -> try_read b room = (b', out) ->
  exists a, contiguous_arrived ops (nread b) a /\
            out = slice c (nread b) (N.min room a) /\ nread b' = nread b + N.min room a.
Proof.
  intros c ops b outs room b' out H Hr. exists (available b).
  destruct (try_read_spec c b room b' out (proj1 (reach_spec _ _ _ _ H)) Hr) as (_ & S2 & S3 & _).
  split; [exact (reach_available _ _ _ _ H)|]. split; assumption.
Qed.

(* try_next hands out a non-empty piece of the arrived contiguous prefix, or nothing when there is none *)
Theorem c08_next_exact : forall c ops b outs b' d,
  reach c ops b outs -> try_next b = (b', d) ->
  exists a, contiguous_arrived ops (nread b) a /\
    match d with
    | None => a = 0 /\ b' = b
    | Some out => exists k, 0 < k <= a /\ out = slice c (nread b) k /\ nread b' = nread b + k
    end.
Proof.
  intros c ops b outs b' d H Hn. exists (available b).
  split; [exact (reach_available _ _ _ _ H)|].
  pose proof (try_next_spec c b b' d (proj1 (reach_spec _ _ _ _ H)) Hn) as HS.
  destruct d as [out|]; [|now destruct HS].
  destruct HS as (k & K1 & _ & K3 & K2 & _). now exists k.
Qed.

(* non-vacuity: a history with overlap, duplicate, out-of-order arrival, an empty piece and
   interleaved reads is reachable, and its reads are the content prefix *)
Example c08_nonvacuous :
  let ops := [RbRecv 4 3; RbRecv 0 2; RbRead 10; RbRecv 1 5; RbRecv 9 0; RbNext; RbRecv 4 3; RbRecv 6 6; RbRead 3; RbRead 100] in
  let '(b, outs) := rb_execs content empty_buf ops in
  bytes_of outs = slice content 0 12 /\ nread b = 12 /\ fresh_of outs = 12 /\ segs b = [].
Proof. vm_compute. repeat split. Qed.

Print Assumptions c08_inv.
Print Assumptions c08_read_prefix.
Print Assumptions c08_coverage.
Print Assumptions c08_fresh_sum.
Print Assumptions c08_read_exact.
Print Assumptions c08_next_exact.
Print Assumptions c08_nonvacuous.
