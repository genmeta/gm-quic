(* C11 — flow-control limits are never exceeded and violations are detected.
   Only the property theorems live here; each rests on the lemmas of Proofs/Flow.v,
   Proofs/StreamCtl.v or Proofs/StreamLift.v and its assumptions are printed for the audit.
   `as_is` is the code as it stands, `fixed` the code after the `fix:` commits for F12, F13, F26,
   F27, F33 and F34. *)
From Coq Require Import List NArith ZArith Bool Lia.
From GQ Require Import Model.StreamCtl Proofs.Flow Proofs.StreamCtl Proofs.StreamLift.
Import ListNotations.
Local Open Scope N_scope.

(* which parameter feeds which window *)
Theorem c11_window_table_recv : forall loc d,
  open_recv_window loc = rfc_recv_window true Bi loc
  /\ accept_recv_window loc d = rfc_recv_window false d loc.
Proof. destruct d; split; reflexivity. Qed.

Theorem c11_window_table : forall d mem remote peer,
  (mem = Some peer \/ (mem = None /\ remote = Some peer)) ->
  open_send_window fixed d mem remote = Some (rfc_send_window true d peer)
  /\ accept_send_window peer = rfc_send_window false Bi peer
  /\ revise_send_window peer d = rfc_send_window true d peer.
Proof. intros d mem remote peer. intros [-> | [-> ->]]; destruct d; repeat split; reflexivity. Qed.

(* as coded: conditional on the known class F12; right for bidirectional streams, for 0-RTT, and
   whenever the two values coincide *)
Theorem c11_window_table_asis : forall d mem remote peer,
  (mem = Some peer \/ (mem = None /\ remote = Some peer)) ->
  ~ (mem = None /\ d = Uni /\ p_sdu peer <> p_sdbr peer) ->          (* ~ KnownClass F12 *)
  open_send_window as_is d mem remote = Some (rfc_send_window true d peer).
Proof.
  intros d mem remote peer.
  intros [-> | [-> ->]] NK; destruct d; try reflexivity.
  cbn. f_equal. destruct (N.eq_dec (p_sdu peer) (p_sdbr peer)) as [E|E]; [congruence|].
  exfalso. apply NK. auto.
Qed.

Theorem c11_window_table_refuted :
  exists peer, open_send_window as_is Uni None (Some peer) <> Some (rfc_send_window true Uni peer).
Proof. exists (mkp 0 0 0 0 1000 0). vm_compute. discriminate. Qed.

(* F12 on the whole model: peer uni = 0, bidi_remote = 1000: 50 bytes leave on uni stream 2;
   the repaired model sends nothing *)
Example c11_f12_replay :
  let cfg := [0; 0; 0; 10; 10; 100000; 1000; 1000; 1000; 5; 5; 100000; 700; 1000; 0; 0; 0; 0; 0; 0; 0]%Z in
  let ops := [(0, [0%Z]); (1, [1%Z]); (2, [2; 50]%Z); (6, [1200%Z])] in
  nth 3 (run_streams cfg ops) [] = [1; 0; 1147; 1; 1; 2; 0; 50; 0]%Z
  /\ nth 3 (run_streams_fixed cfg ops) [] = [0; 0; 1200; 0]%Z.
Proof. vm_compute. split; reflexivity. Qed.

(* F26 on the whole model: a server-initiated bidi stream touched by revise_params sends 900
   bytes although the peer's bidi_local window is 100; the repaired model stops at 100 *)
Example c11_f26_replay :
  let cfg := [0; 1; 0; 4; 4; 100000; 500; 500; 500; 4; 4; 100000; 100; 1000; 300; 4; 4; 100000; 100; 1000; 300]%Z in
  let ops := [(7, [1; 0; 1; 0]%Z); (1, [0%Z]); (0, [0%Z]); (5, [0%Z]); (2, [1; 900]%Z); (6, [1200%Z])] in
  nth 5 (run_streams cfg ops) [] = [1; 0; 296; 1; 1; 1; 0; 900; 0]%Z
  /\ nth 5 (run_streams_fixed cfg ops) [] = [1; 0; 1096; 1; 1; 1; 0; 100; 0]%Z.
Proof. vm_compute. split; reflexivity. Qed.

(* F26: the repaired revise_params leaves peer-initiated streams alone; the code does not *)
Theorem c11_revise_scope : forall s rej sid sn,
  In (sid, sn) (revise_outs fixed s rej) -> sid_role sid <> d_role s -> In (sid, sn) (d_outs s).
Proof.
  intros s rej sid sn.
  unfold revise_outs. intros Hin Hr. apply in_map_iff in Hin. destruct Hin as ([k x] & E & Hin).
  cbn [fst snd] in E. cbn [fix26 fixed negb orb] in E.
  destruct (Sid.role_eqb_spec (sid_role k) (d_role s)) as [R|R].
  - destruct (sid_idx k <? _); cbn [andb] in E; injection E as -> <-; [destruct (Hr R)|exact Hin].
  - rewrite andb_false_r in E. injection E as -> <-. exact Hin.
Qed.

(* per-stream limit: every frame taken from a stream ends within its current window; the
   window only moves to the maximum of the values supplied *)
Theorem c11_stream_limit : forall s fl av s' st e fresh eos,
  Winv s -> snd_try_load s fl av = (s', Some (st, e, fresh, eos)) ->
  Winv s' /\ sn_window s' = sn_window s /\ st <= e <= sn_window s
  /\ (fresh = true -> e - st <= fl).
Proof. intros s fl av s' st e fresh eos. exact (try_load_spec s fl av s' (Some (st, e, fresh, eos))). Qed.

Theorem c11_stream_limit_roundrobin : forall order cap fl outs outs' sid tok st e fresh eos,
  (forall k sn, alookup outs k = Some sn -> Winv sn) ->
  try_streams outs order cap fl = (outs', Some (sid, tok, (st, e, fresh, eos))) ->
  exists sn, Winv sn /\ st <= e <= sn_window sn /\ (fresh = true -> e - st <= fl).
Proof.
  intros order cap fl outs outs' sid tok st e fresh eos HW T.
  destruct (try_streams_spec _ _ _ _ _ _ HW T) as (_ & _ & (w & Hw & B) & F).
  unfold wmap in Hw. destruct (alookup outs sid) as [sn|] eqn:L; [|discriminate].
  injection Hw as <-. exists sn. split; [eapply HW; eauto|auto].
Qed.

Theorem c11_window_update : forall s v,
  Winv s -> Winv (snd_update_window s v) /\ sn_window (snd_update_window s v) = N.max (sn_window s) v.
Proof. exact p_c11_window_update. Qed.

Theorem c11_window_write : forall s len,
  Winv s -> sn_state s <> SDataSent -> Winv (snd_write s len) /\ sn_window (snd_write s len) = sn_window s.
Proof. exact p_c11_window_write. Qed.

Theorem c11_window_loss : forall s a b f,
  Winv s -> Winv (snd_may_loss s a b f) /\ sn_window (snd_may_loss s a b f) = sn_window s.
Proof. exact p_c11_window_loss. Qed.

(* connection limit (repaired controller, F34): for EVERY history of credits, posts, drops,
   MAX_DATA updates and handshakes - 0-RTT rejections included, no guard - the accounting identity
   `charged + slack = fresh bytes posted since the last rejection + outstanding` holds and
   charged <= max_data, so `max_data - sent_data` never underflows.  [ss_slack] is the unused budget
   Credits taken before the last rejection still held at that moment (defined in s_step); it is 0
   when no Credit is alive across a rejection (c11_conn_limit_quiet: then fresh bytes since the
   rejection <= the most recent MAX_DATA, each byte charged once; once every credit is dropped the
   charge is exactly the fresh bytes posted) *)
Theorem c11_conn_limit : forall ops m st,
  s_exec true (s_init m) ops = Some st ->
  Sinv st /\ ss_posted st <= max_data (ss_c st) + ss_slack st
  /\ sc_available (ss_c st) = Some (max_data (ss_c st) - sent_data (ss_c st))
  /\ (ss_slack st = 0 -> outstanding (ss_cr st) = 0 -> sent_data (ss_c st) = ss_posted st).
Proof.
  intros ops m st.
  intros H. pose proof (Sinv_exec ops _ _ (Sinv_init m) H) as I.
  split; [exact I|]. destruct I as [Hs Hle].
  split; [lia|]. split.
  - unfold sc_available. destruct (N.leb_spec (sent_data (ss_c st)) (max_data (ss_c st))); [reflexivity|lia].
  - intros Hk Hz. lia.
Qed.

Theorem c11_conn_limit_quiet : forall ops m st,
  s_quiet true (s_init m) ops -> s_exec true (s_init m) ops = Some st ->
  ss_slack st = 0 /\ sent_data (ss_c st) = ss_posted st + outstanding (ss_cr st)
  /\ ss_posted st <= max_data (ss_c st).
Proof.
  intros ops m st.
  intros Q H.
  assert (Z : ss_slack st = 0).
  { assert (Z0 : ss_slack (s_init m) = 0) by reflexivity. revert Z0 Q H. generalize (s_init m).
    induction ops as [|o rest IH]; intros s0 Z0 Q H; cbn [s_exec s_quiet] in *.
    - injection H as <-; exact Z0.
    - destruct Q as [Q1 Q2]. destruct (s_step true s0 o) as [s1|] eqn:E; [|discriminate].
      eapply IH; [|exact Q2|exact H]. eapply slack_step; eauto. }
  destruct (c11_conn_limit ops m st H) as ([Hs Hle] & Hp & _). lia.
Qed.

(* the only arithmetic panics left are the callers': posting beyond a credit, or returning a
   Credit whose unused budget was taken before a rejection *)
Theorem c11_conn_no_underflow : forall ops m,
  s_exec true (s_init m) ops = None ->
  exists pre o rest st i av,
    ops = pre ++ o :: rest /\ s_exec true (s_init m) pre = Some st
    /\ nth_error (ss_cr st) i = Some (Some av)
    /\ ((exists n, o = SPost i n /\ av < n)
        \/ (o = SDrop i /\ sent_data (ss_c st) < av /\ 0 < ss_slack st)).
Proof.
  intros ops m.
  pose proof (Sinv_init m) as I0. revert I0. generalize (s_init m).
  induction ops as [|o rest IH]; intros s0 I0 H; cbn [s_exec] in H; [discriminate|].
  pose proof (s_step_Sinv s0 o I0) as I1. destruct (s_step true s0 o) as [s1|] eqn:E.
  - destruct (IH s1 I1 H) as (pre & o' & rest' & st & i & av & -> & Hp & Hn & Hl).
    exists (o :: pre), o', rest', st, i, av. cbn [app s_exec]. rewrite E. auto.
  - destruct I1 as (i & av & Hn & Hl). exists [], o, rest, s0, i, av. cbn. auto.
Qed.

(* a retransmission is posted as 0 fresh bytes *)
Theorem c11_retransmission_free : forall fx st i st',
  s_step fx st (SPost i 0) = Some st' -> ss_posted st' = ss_posted st /\ ss_c st' = ss_c st.
Proof.
  intros fx st i st'.
  cbn [s_step]. destruct (nth_error (ss_cr st) i) as [[av|]|]; intro H.
  - unfold credit_post in H. destruct (N.leb_spec 0 av); [|lia]. injection H as <-. cbn. split; [lia|reflexivity].
  - injection H as <-; auto.
  - injection H as <-; auto.
Qed.

(* the limit never goes down except at a rejection, where it becomes the server's new value and
   the charge restarts from 0 (as it was: the charge was kept) *)
Theorem c11_send_limit_monotone : forall fx st o st',
  sop_ok o -> s_step fx st o = Some st' -> max_data (ss_c st) <= max_data (ss_c st').
Proof. intros fx st o st' OK H. apply (s_step_ok fx st o st' OK H). Qed.

Theorem c11_revise_rejected : forall s v,
  max_data (sc_revise s true v) = v /\ sent_data (sc_revise s true v) = 0
  /\ sent_data (sc_revise_asis s true v) = sent_data s.
Proof.
  intros s v. unfold sc_revise, sc_revise_asis. destruct (sc_revise_spec true s true v) as [-> ->].
  destruct (sc_revise_spec false s true v) as [-> _]. repeat split. apply N.max_r, N.le_0_l.
Qed.


(* try_load_data_into_once: no arithmetic panic, max_data untouched, sent_data raised by exactly
   the fresh bytes of the frame emitted (0 for a retransmission, 0 if nothing goes out), still
   within max_data, and the frame ends within the window its stream had *)
Theorem c11_load_once_charge : forall v s cap,
  Dinv s ->
  let '(r, s', _) := load_once v s cap in
  Dinv s' /\ max_data (d_fs s') = max_data (d_fs s)
  /\ (forall k, wmap (d_outs s') k = wmap (d_outs s) k)
  /\ d_l s' = d_l s /\ d_r s' = d_r s /\ d_lq s' = d_lq s /\ d_role s' = d_role s
  /\ match r with
     | None => sent_data (d_fs s') = sent_data (d_fs s)
     | Some (s2, _, fs) =>
       s2 = s' /\
       exists (sid off len : N) (fin fresh : bool),
         fs = [FStream sid off len fin]
         /\ sent_data (d_fs s') = sent_data (d_fs s) + (if fresh then len else 0)
         /\ (exists w, wmap (d_outs s) sid = Some w /\ off + len <= w)
     end.
Proof.
  intros v s cap I. pose proof (load_once_charge v s cap I) as C. pose proof (load_once_shape v s cap) as S.
  destruct (load_once v s cap) as [[r s'] c]. destruct C as (I' & M & W & C), S as ((R & L & Rm & Q) & S).
  repeat (split; [assumption|]). destruct r as [[[s2 cap'] fs]|]; [split; [apply S|exact C]|exact C].
Qed.

(* the invariant (every sender within its window, sent_data <= max_data) holds after every
   whole-DataStreams op list - for the repaired variant a 0-RTT rejection included; all_ok only
   asks that a handshake keeps the window of a stream whose FIN is out above what it covers, and,
   for a variant without the repair of F34, that the handshake is not a rejection *)
Theorem c11_ds_invariant : forall v ops s,
  Dinv s -> all_ok v s ops -> Dinv (ds_exec v s ops).
Proof.
  intros v ops.
  induction ops as [|o rest IH]; intros s I OK; cbn [ds_exec]; [exact I|].
  destruct OK as [O1 O2]. apply IH; [apply (ds_step_spec v s ([], []) o); assumption|exact O2].
Qed.

Theorem c11_ds_invariant_init : forall r c loc rem mem, Dinv (ds_init r c loc rem mem).
Proof. unfold Dinv, ds_init, AllW. cbn. split; [intros k sn H; discriminate|lia]. Qed.

(* c11_stream_limit and c11_conn_limit at every reachable state of the composed model *)
Theorem c11_limits_ds : forall v ops s0 cap fuel,
  Dinv s0 -> all_ok v s0 ops ->
  let s := ds_exec v s0 ops in
  (exists c q b, sc_credit (d_fs s) cap = Some (c, q, b))
  /\ let '(s', _, sf, _, _) := load_loop v fuel s cap [] [] false in
     Forall (frame_in_window (d_outs s)) sf
     /\ sent_data (d_fs s) <= sent_data (d_fs s') <= sent_data (d_fs s) + frames_len sf
     /\ sent_data (d_fs s') <= max_data (d_fs s') /\ max_data (d_fs s') = max_data (d_fs s).
Proof.
  intros v ops s0 cap fuel.
  intros I OK. pose proof (c11_ds_invariant v ops s0 I OK) as Is. cbn zeta. generalize dependent (ds_exec v s0 ops).
  intros s Is. split.
  - pose proof (sc_credit_spec (d_fs s) cap) as C. destruct Is as [_ Hle].
    destruct (sc_credit (d_fs s) cap) as [[[c q] b]|]; [eauto|lia].
  - assert (L0 : Loading s s []).
    { split; [exact Is|]. split; [reflexivity|]. split; [constructor|]. cbn [frames_len]. split; [lia|reflexivity]. }
    pose proof (load_loop_inv (Loading s) v (Loading_once v s) fuel s cap [] [] false L0) as L.
    destruct (load_loop v fuel s cap [] [] false) as [[[[s' room] sf] cf] any].
    destruct L as ([_ Hle] & _ & F & B & M). auto.
Qed.

(* no operation other than LOAD charges the connection-level budget; the only other operation that
   moves it is a rejected handshake (repaired code), which restarts it: charge 0, limit = the
   server's initial_max_data *)
Theorem c11_only_load_charges : forall v s o,
  (forall cap, o <> OLoad cap) -> (fix34 v = true -> o <> OHandshake true) ->
  sent_data (d_fs (fst (ds_step v s o))) = sent_data (d_fs s).
Proof. intros v s o. apply (ds_step_spec v s ([], []) o). Qed.

Theorem c11_rejected_restarts : forall v s,
  fix34 v = true -> d_closed s = false -> d_hs s = false ->
  let s' := fst (ds_step v s (OHandshake true)) in
  sent_data (d_fs s') = 0 /\ max_data (d_fs s') = p_md (d_rem s).
Proof.
  intros v s FX C H. cbn zeta. unfold ds_step. rewrite C. unfold ds_handshake. rewrite H. cbn [fst d_fs].
  destruct (sc_revise_spec (fix34 v) (d_fs s) true (p_md (d_rem s))) as [-> ->]. rewrite FX.
  split; [reflexivity|apply N.max_r, N.le_0_l].
Qed.


(* F33 repaired: a locally opened stream sends only while its index is below the peer's
   current stream limit (after a rejected 0-RTT attempt the limit may be below what was opened) *)
Theorem c11_load_within_stream_limit : forall v s cap,
  fix33 v = true ->
  let '(r, _, _) := load_once v s cap in
  match r with
  | Some (_, _, fs) =>
    forall sid off len fin, In (FStream sid off len fin) fs -> sid_role sid = d_role s ->
                            sid_idx sid < pget (l_max (d_l s)) (sid_dir sid)
  | None => True
  end.
Proof.
  intros v s cap HV. pose proof (load_once_shape v s cap) as S.
  destruct (load_once v s cap) as [[[[[s2 cap'] fs]|] s'] c]; [|exact I].
  destruct S as (_ & _ & sid & tok & off & len & fin & -> & Hin).
  intros sid' off' len' fin' [E|[]] Hr. injection E as <- _ _ _. exact (load_order_below_limit v s _ tok HV Hin Hr).
Qed.

(* as it was: remembered limit 5, three bidi streams opened, rejected handshake with limit 1:
   streams 8 and 4 (indices 2, 1) still send; repaired, only stream 0 does *)
Example c11_f33_replay :
  let cfg := [0; 1; 0; 3; 3; 100000; 100; 100; 100; 1; 1; 100000; 900; 800; 700; 5; 5; 100000; 900; 800; 700]%Z in
  let ops := [(1, [0%Z]); (1, [0%Z]); (1, [0%Z]); (2, [0; 50]%Z); (2, [4; 50]%Z); (2, [8; 50]%Z); (0, [1%Z]); (6, [1200%Z])] in
  nth 7 (run_streams cfg ops) [] = [1; 0; 1041; 3; 1; 8; 0; 50; 0; 1; 4; 0; 50; 0; 1; 0; 0; 50; 0]%Z
  /\ nth 7 (run_streams_fixed cfg ops) [] = [1; 0; 1147; 1; 1; 0; 0; 50; 0]%Z.
Proof. vm_compute. split; reflexivity. Qed.

(* F34.  As it was, revise_max_data kept sent_data across a
   0-RTT rejection while max_data restarted from the new value: with every credit returned before
   the rejection and nobody posting beyond a credit, sent_data > max_data afterwards and the next
   credit() underflows `max_data - sent_data` (debug panic, release wrap = unlimited credit); the
   repaired controller answers the same history *)
Theorem c11_conn_limit_asis_refuted :
  exists ops m st,
    s_exec false (s_init m) ops = Some st /\ ss_slack st = 0 /\ outstanding (ss_cr st) = 0
    /\ ~ sent_data (ss_c st) <= max_data (ss_c st)
    /\ s_step false st (SCredit 10) = None
    /\ exists st', s_exec true (s_init m) (ops ++ [SCredit 10]) = Some st'.
Proof.
  exists [SCredit 800; SPost 0 800; SDrop 0; SRevise true 500], 1000.
  eexists. split; [vm_compute; reflexivity|].
  split; [reflexivity|]. split; [reflexivity|]. split; [cbn; lia|].
  split; [vm_compute; reflexivity|]. eexists. vm_compute. reflexivity.
Qed.

(* on the public FlowController: limit 1000, 800 posted, rejection with 500: as it was the next
   credit() panics (-3); repaired, it grants 10 of the fresh 500 *)
Example c11_f34_replay :
  let ops := [(0, [800%Z]); (1, [0; 800]%Z); (2, [0%Z]); (5, [1; 500]%Z); (0, [10%Z])] in
  run_flow [1000; 0]%Z ops = [[1; 800; 0; 0]; [1; 0]; [1]; [1]; [-3]]%Z
  /\ run_flow_fixed [1000; 0]%Z ops = [[1; 800; 0; 0]; [1; 0]; [1]; [1]; [1; 10; 0; 0]]%Z.
Proof. vm_compute. split; reflexivity. Qed.

(* on the whole model (corpus/C11/streams/f34.case): 0-RTT client sends 800 bytes under a
   remembered MAX_DATA of 1000, the handshake is rejected with MAX_DATA 500: as it was the next
   LOAD dies in credit() (the model's outcome is the inert `nothing loaded`, the Rust panics);
   repaired, it re-sends the first 500 bytes as fresh (with DATA_BLOCKED 500) and stops there *)
Example c11_f34_replay_streams :
  let cfg := [0; 1; 0; 3; 3; 100000; 100; 100; 100; 5; 5; 500; 900; 800; 700; 5; 5; 1000; 900; 800; 700]%Z in
  let ops := [(1, [0%Z]); (2, [0; 800]%Z); (6, [1200%Z]); (0, [1%Z]); (6, [1200%Z]); (6, [1200%Z])] in
  nth 4 (run_streams_with (mkvar true true true true true false) cfg ops) [] = [0; 0; 1200; 0]%Z
  /\ nth 4 (run_streams_fixed cfg ops) [] = [1; 0; 696; 2; 1; 0; 0; 500; 0; 8; 500; 0; 0; 0]%Z
  /\ nth 5 (run_streams_fixed cfg ops) [] = [0; 0; 1200; 0]%Z.
Proof.
  (* the repaired run is evaluated once for its two observations *)
  intros cfg ops. evar (l : list (list Z)).
  assert (E : run_streams_fixed cfg ops = l) by (vm_compute; reflexivity).
  rewrite E. subst l. vm_compute. repeat split.
Qed.

Theorem c11_recv_detects : forall r off len fin final,
  rc_phase r = PRecv ->
  (rc_maxsd r < off + len -> rc_recv_data fixed r off len fin = inr EFlowControl)
  /\ (rc_maxsd r < final -> rc_recv_reset fixed r final = inr EFlowControl).
Proof.
  intros r off len fin final.
  intros Hp. unfold rc_recv_data, rc_recv_reset. rewrite Hp. cbn [fix13 fixed andb].
  split; intro H.
  - destruct (N.ltb_spec (rc_maxsd r) (off + len)); [|lia]. destruct fin; reflexivity.
  - destruct (N.ltb_spec (rc_maxsd r) final); [reflexivity|lia].
Qed.

(* as coded: conditional on the known class F13 (the frame carries FIN, or is a RESET_STREAM) *)
Theorem c11_recv_detects_asis : forall r off len,
  rc_phase r = PRecv -> rc_maxsd r < off + len ->
  rc_recv_data as_is r off len false = inr EFlowControl.
Proof.
  intros r off len Hp H. unfold rc_recv_data. rewrite Hp.
  destruct (N.ltb_spec (rc_maxsd r) (off + len)); [reflexivity|lia].
Qed.

Theorem c11_recv_detects_refuted :
  exists r off len final,
    rc_phase r = PRecv /\ rc_maxsd r < off + len /\ rc_maxsd r < final
    /\ (exists r', rc_recv_data as_is r off len true = inl r')
    /\ (exists r' n, rc_recv_reset as_is r final = inl (r', n)).
Proof.
  exists (new_recver 100 false), 5000, 10, 5010. vm_compute.
  split; [reflexivity|]. split; [reflexivity|]. split; [reflexivity|]. split; eauto.
Qed.

(* F13 on the whole model: limit 100; (5000,10) is refused, with FIN accepted, RESET 5010 accepted;
   the repaired model answers FlowControl (3) to all three *)
Example c11_f13_replay :
  let cfg := [1; 0; 0; 10; 10; 100000; 100; 100; 100; 5; 5; 100000; 700; 1000; 0; 0; 0; 0; 0; 0; 0]%Z in
  nth 1 (run_streams cfg [(0, [0%Z]); (7, [0; 5000; 10; 0]%Z)]) [] = [3; 0; 0]%Z
  /\ nth 1 (run_streams cfg [(0, [0%Z]); (7, [0; 5000; 10; 1]%Z)]) [] = [0; 5010; 0]%Z
  /\ nth 1 (run_streams cfg [(0, [0%Z]); (8, [0; 7; 5010]%Z)]) [] = [0; 5010; 0]%Z
  /\ nth 1 (run_streams_fixed cfg [(0, [0%Z]); (7, [0; 5000; 10; 1]%Z)]) [] = [3; 0; 0]%Z
  /\ nth 1 (run_streams_fixed cfg [(0, [0%Z]); (8, [0; 7; 5010]%Z)]) [] = [3; 0; 0]%Z.
Proof. vm_compute. repeat split. Qed.

Theorem c11_recv_flow_only : forall v r off len fin,
  rc_recv_data v r off len fin = inr EFlowControl -> rc_phase r = PRecv /\ rc_maxsd r < off + len.
Proof.
  intros v r off len fin H. apply recv_data_err in H. destruct (rc_phase r); try contradiction.
  - destruct H as [[_ H]|[E _]]; [auto|discriminate E].
  - destruct H as [E _]. discriminate E.
Qed.

Theorem c11_recv_detects_conn : forall s a,
  (rmax_data s < rcvd_data s + a -> snd (on_new_rcvd s a) = RcvFlowControl)
  /\ (rcvd_data s + a <= rmax_data s -> snd (on_new_rcvd s a) <> RcvFlowControl).
Proof.
  intros s a.
  unfold on_new_rcvd. destruct (N.leb_spec (rcvd_data s + a) (rmax_data s)); split; intro; try lia.
  - destruct (_ <=? _); [destruct (_ <? _)|]; discriminate.
  - reflexivity.
Qed.

Theorem c11_advertised_monotone : forall s amounts,
  rmax_data s <= rmax_data (fst (r_exec s amounts)).
Proof.
  intros s amounts. apply (r_exec_inv (fun s' => rmax_data s <= rmax_data s')); [|apply N.le_refl].
  intros s1 a H. exact (N.le_trans _ _ _ H (proj1 (p_c11_advertised_monotone_frame s1 a))).
Qed.

Theorem c11_advertised_monotone_frame : forall s a,
  rmax_data s <= rmax_data (fst (on_new_rcvd s a))
  /\ (forall m, snd (on_new_rcvd s a) = RcvOk (Some m) -> m = rmax_data (fst (on_new_rcvd s a)) /\ rmax_data s <= m)
  /\ rstep (fst (on_new_rcvd s a)) = rstep s
  /\ rcvd_data (fst (on_new_rcvd s a)) = rcvd_data s + a.
Proof. exact p_c11_advertised_monotone_frame. Qed.

Theorem c11_advertised_monotone_stream : forall r room,
  let '(r', _, _, m) := rc_read r room in
  rc_maxsd r <= rc_maxsd r' /\ match m with Some x => x = rc_maxsd r' /\ rc_maxsd r < x | None => rc_maxsd r' = rc_maxsd r end.
Proof.
  intros r room.
  assert (K : forall w, w = rc_maxsd r -> rc_maxsd r <= w /\ w = rc_maxsd r)
    by (intros w ->; split; [apply N.le_refl|reflexivity]).
  unfold rc_read.
  destruct (rc_phase r); try destruct (is_readable (rc_buf r)); try destruct (try_read (rc_buf r) room) as [b' out];
    try (apply K; reflexivity).
  (* Recv with something to read: the only branch that can move the limit *)
  destruct (N.ltb_spec (rc_maxsd r) (nread b' + 1000000)); cbn [andb]; [|apply K; reflexivity].
  destruct (N.ltb_spec (rc_maxsd r) (N.min (nread b' + 2000000) VARINT_MAX)); [|apply K; reflexivity].
  split; [apply N.lt_le_incl; assumption|split; [reflexivity|assumption]].
Qed.

Theorem c11_recv_no_panic : forall init amounts,
  let s := fst (r_exec (rctl_new init) amounts) in
  rmax_data s <= init + rcvd_data s + 2 * (init / 2).
Proof. intros init amounts s. eapply N.le_trans; [apply advertised_bound|apply N.le_add_r]. Qed.

(* non-vacuity: a history that reaches the limit, returns unused credit, is raised, posts a
   retransmission, is then rejected with a smaller limit and fills the new limit exactly; a history
   in which a Credit straddles the rejection (the slack term is needed: 50 fresh bytes since the
   rejection against a limit of 30); and a receive history that advertises twice and then overflows *)
Example c11_nonvacuous :
  (exists st, s_exec true (s_init 100)
                [SCredit 1200; SPost 0 60; SDrop 0; SCredit 1200; SPost 1 0; SPost 1 40; SDrop 1;
                 SCredit 5; SDrop 2; SIncrease 250; SCredit 1200; SPost 3 100; SDrop 3;
                 SRevise true 120; SCredit 1200; SPost 4 120; SDrop 4] = Some st
              /\ ss_posted st = 120 /\ sent_data (ss_c st) = 120 /\ max_data (ss_c st) = 120 /\ ss_slack st = 0)
  /\ (exists st, s_exec true (s_init 100)
                   [SCredit 50; SRevise true 30; SPost 0 20; SCredit 100; SPost 1 30; SDrop 0; SDrop 1] = Some st
                 /\ ss_posted st = 50 /\ sent_data (ss_c st) = 0 /\ max_data (ss_c st) = 30 /\ ss_slack st = 50)
  /\ snd (r_exec (rctl_new 100) [20; 30; 40; 200]) = [RcvOk None; RcvOk (Some 150); RcvOk None; RcvFlowControl].
Proof. vm_compute. split; [eexists; repeat split|split; [eexists; repeat split|reflexivity]]. Qed.

Print Assumptions c11_window_table_recv.
Print Assumptions c11_window_table.
Print Assumptions c11_window_table_asis.
Print Assumptions c11_window_table_refuted.
Print Assumptions c11_f12_replay.
Print Assumptions c11_f26_replay.
Print Assumptions c11_revise_scope.
Print Assumptions c11_stream_limit.
Print Assumptions c11_stream_limit_roundrobin.
Print Assumptions c11_window_update.
Print Assumptions c11_window_write.
Print Assumptions c11_window_loss.
Print Assumptions c11_conn_limit.
Print Assumptions c11_conn_limit_quiet.
Print Assumptions c11_revise_rejected.
Print Assumptions c11_rejected_restarts.
Print Assumptions c11_conn_no_underflow.
Print Assumptions c11_retransmission_free.
Print Assumptions c11_send_limit_monotone.
Print Assumptions c11_recv_detects.
Print Assumptions c11_recv_detects_asis.
Print Assumptions c11_recv_detects_refuted.
Print Assumptions c11_f13_replay.
Print Assumptions c11_recv_flow_only.
Print Assumptions c11_recv_detects_conn.
Print Assumptions c11_advertised_monotone.
Print Assumptions c11_advertised_monotone_frame.
Print Assumptions c11_advertised_monotone_stream.
Print Assumptions c11_recv_no_panic.
Print Assumptions c11_nonvacuous.
Print Assumptions c11_load_once_charge.
Print Assumptions c11_ds_invariant.
Print Assumptions c11_ds_invariant_init.
Print Assumptions c11_limits_ds.
Print Assumptions c11_only_load_charges.
Print Assumptions c11_load_within_stream_limit.
Print Assumptions c11_f33_replay.
Print Assumptions c11_conn_limit_asis_refuted.
Print Assumptions c11_f34_replay.
Print Assumptions c11_f34_replay_streams.
