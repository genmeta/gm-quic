(* C12 — stream limits, stream direction and final size are enforced.
   Only the property theorems live here; each rests on the lemmas of Proofs/Sid.v,
   Proofs/StreamCtl.v or Proofs/StreamLift.v and its assumptions are printed for the audit. *)
From Coq Require Import List NArith ZArith Bool Lia.
From GQ Require Import Model.StreamCtl Proofs.Sid Proofs.StreamCtl Proofs.StreamLift.
Import ListNotations.
Local Open Scope N_scope.

(* opened count <= the peer's current maximum, for every history of allocations and MAX_STREAMS
   updates (0-RTT rejection is the stated guard) *)
Theorem c12_open_bound : forall r ops s,
  Forall no_reject ops -> Linv s -> Linv (fst (l_exec r s ops)).
Proof.
  intros r ops.
  induction ops as [|o rest IH]; intros s F I; [exact I|].
  inversion F as [|o' rest' NR F']; subst. cbn [l_exec].
  pose proof (Linv_step r s o NR I) as I1.
  destruct (l_step r s o) as [s1 out]. destruct (l_exec r s1 rest) as [s2 outs] eqn:E.
  cbn. specialize (IH s1 F' I1). rewrite E in IH. exact IH.
Qed.

Theorem c12_open_ids : forall r s d s' sid,
  poll_alloc_sid r s d = (s', AllocSid sid) ->
  sid = sid_of r d (pget (l_next s) d) /\ sid_idx sid < pget (l_max s) d
  /\ pget (l_next s') d = pget (l_next s) d + 1.
Proof.
  intros r s d s' sid H. destruct (alloc_spec _ _ _ _ _ H) as (-> & Hlt & Hn & _).
  rewrite sid_of_idx, Hn, pget_pset_same. auto.
Qed.

Theorem c12_open_limit_is_granted : forall r ops s d,
  Forall no_reject ops -> pget (l_max (fst (l_exec r s ops))) d = granted (pget (l_max s) d) d ops.
Proof. exact p_c12_open_limit_is_granted. Qed.

(* accepted index <= max; the full statement (< max) holds outside the known class F14 *)
Theorem c12_accept_bound : forall mono s d idx s' res up,
  try_accept_sid false mono s d idx = (s', res, up) ->
  idx <> pget (r_max s) d ->                         (* ~ KnownClass F14 *)
  (forall m, res <> AccExceed m) -> idx < pget (r_max s) d.
Proof.
  intros mono s d idx s' res up H NK NE. apply N.le_neq. split; [|exact NK].
  apply N.ltb_ge. exact (accept_within false _ _ _ _ _ _ _ H NE).
Qed.

Theorem c12_accept_le : forall mono s d idx s' res up,
  try_accept_sid false mono s d idx = (s', res, up) ->
  (forall m, res <> AccExceed m) -> idx <= pget (r_max s) d.
Proof. intros mono s d idx s' res up H NE. apply N.ltb_ge. exact (accept_within false _ _ _ _ _ _ _ H NE). Qed.

Theorem c12_accept_exact : forall strict mono s d idx,
  (exists m, snd (fst (try_accept_sid strict mono s d idx)) = AccExceed m)
  <-> over_limit strict idx (pget (r_max s) d) = true.
Proof.
  intros strict mono s d idx.
  unfold try_accept_sid. destruct (over_limit strict idx (pget (r_max s) d)) eqn:O; cbn.
  - split; eauto.
  - split; [|discriminate]. intros [m Hm].
    destruct (idx <? pget (r_next s) d); cbn in Hm; discriminate.
Qed.

(* F14: with limit 0 the peer's stream 0 is accepted *)
Theorem c12_accept_bound_refuted : exists s d idx s' res up,
  try_accept_sid false true s d idx = (s', res, up) /\ (forall m, res <> AccExceed m) /\ ~ idx < pget (r_max s) d.
Proof.
  exists (mkrsid (0, 0) (0, 0) Demand), Bi, 0. eexists _, _, _. split; [vm_compute; reflexivity|].
  split; [intros m; discriminate|vm_compute; discriminate].
Qed.

(* the same witness on the whole model: server, max_streams_uni = 0, client uni stream 2 accepted *)
Example c12_f14_replay :
  run_streams [1; 0; 0; 2; 0; 100000; 100; 100; 100; 5; 5; 100000; 700; 1000; 0; 0; 0; 0; 0; 0; 0]%Z
              [(0, [0%Z]); (7, [2; 0; 1; 0]%Z); (7, [6; 0; 1; 0]%Z)]
  = [[1; 0]; [0; 1; 0]; [4; 0; 0]]%Z.
Proof. vm_compute. reflexivity. Qed.

Theorem c12_accept_bound_rfc : forall mono s d idx s' res up,
  try_accept_sid true mono s d idx = (s', res, up) ->
  (forall m, res <> AccExceed m) -> idx < pget (r_max s) d.
Proof. intros mono s d idx s' res up H NE. apply N.leb_gt. exact (accept_within true _ _ _ _ _ _ _ H NE). Qed.

(* direction: frame kinds on send-only / receive-only streams give StreamState (kind 5, the connection
   is closed), and only those *)
Theorem c12_direction : forall v s sid,
  d_closed s = false -> sid_dir sid = Uni ->
  (sid_role sid = d_role s ->
     forall off len fin final err w,
       ds_step v s (OStream sid off len fin) = (set_closed s, [5; 0; 0]%Z)
       /\ ds_step v s (OReset sid err final) = (set_closed s, [5; 0; 0]%Z)
       /\ ds_step v s (OSDBlocked sid w) = (set_closed s, [5; 0; 0]%Z))
  /\ (sid_role sid <> d_role s ->
     forall err w,
       ds_step v s (OStop sid err) = (set_closed s, [5; 0; 0]%Z)
       /\ ds_step v s (OMaxSD sid w) = (set_closed s, [5; 0; 0]%Z)).
Proof.
  intros v s sid Hc Hd. split; intros Hr; intros; unfold ds_step; rewrite Hc.
  - unfold ds_recv_stream, ds_recv_reset, ds_recv_sdblocked.
    rewrite (proj2 (check_sid_state v s sid true) (conj Hd Hr)). repeat split; reflexivity.
  - unfold ds_recv_stop, ds_recv_maxsd.
    rewrite (proj2 (check_sid_state v s sid false) (conj Hd Hr)). repeat split; reflexivity.
Qed.

Theorem c12_direction_only : forall v s sid side,
  ds_check_sid v s sid side = inr EStreamState ->
  sid_dir sid = Uni /\ (if side then sid_role sid = d_role s else sid_role sid <> d_role s).
Proof. intros v s sid side. apply check_sid_state. Qed.

(* final size: data beyond it, a FIN or RESET that changes it, a FIN or RESET below received data *)
Theorem c12_final_size_known : forall v r f off len fin,
  rc_phase r = PSizeKnown f ->
  (f < off + len \/ (fin = true /\ off + len <> f)) ->
  rc_recv_data v r off len fin = inr EFinalSize.
Proof.
  intros v r f off len fin.
  intros Hp H. unfold rc_recv_data. rewrite Hp.
  destruct (N.ltb_spec f (off + len)); [reflexivity|].
  destruct H as [H | [-> H]]; [lia|]. cbn [andb].
  destruct (N.eqb_spec (off + len) f); [contradiction|reflexivity].
Qed.

Theorem c12_final_size_shrink : forall v r off len,
  rc_phase r = PRecv -> off + len < largest (rc_buf r) ->
  final_or_flow v (rc_recv_data v r off len true).
Proof.
  intros v r off len.
  intros Hp H. unfold rc_recv_data, final_or_flow. rewrite Hp.
  destruct (fix13 v && (rc_maxsd r <? off + len)) eqn:E.
  - right. apply andb_true_iff in E. tauto.
  - left. destruct (N.ltb_spec (off + len) (largest (rc_buf r))); [reflexivity|lia].
Qed.

Theorem c12_final_size_reset : forall v r final,
  match rc_phase r with
  | PSizeKnown f => final <> f -> rc_recv_reset v r final = inr EFinalSize
  | PRecv => final < rc_largest r ->
             rc_recv_reset v r final = inr EFinalSize
             \/ (fix13 v = true /\ rc_recv_reset v r final = inr EFlowControl)
  | _ => True
  end.
Proof.
  intros v r final.
  unfold rc_recv_reset. destruct (rc_phase r) as [|f| | | |]; auto.
  - intro H. destruct (fix13 v && (rc_maxsd r <? final)) eqn:E.
    + right. apply andb_true_iff in E. tauto.
    + left. destruct (N.ltb_spec final (rc_largest r)); [reflexivity|lia].
  - intro H. destruct (N.eqb_spec final f); [contradiction|reflexivity].
Qed.

Theorem c12_final_size_only : forall v r off len fin,
  rc_recv_data v r off len fin = inr EFinalSize ->
  match rc_phase r with
  | PRecv => fin = true /\ off + len < largest (rc_buf r)
  | PSizeKnown f => f < off + len \/ (fin = true /\ off + len <> f)
  | _ => False
  end.
Proof.
  intros v r off len fin H. apply recv_data_err in H. destruct (rc_phase r); try exact H.
  - destruct H as [[E _]|[_ H]]; [discriminate E|exact H].
  - apply H.
Qed.

(* once known, the final size never changes while the stream stays in the receiving set *)
Theorem c12_final_size_stable : forall v r f off len fin r',
  rc_phase r = PSizeKnown f -> rc_recv_data v r off len fin = inl r' ->
  rc_phase r' = PSizeKnown f \/ (rc_phase r' = PDataRcvd /\ rc_inset r' = false).
Proof.
  intros v r f off len fin r'.
  intros Hp. unfold rc_recv_data. rewrite Hp.
  destruct (f <? off + len); [discriminate|]. destruct (fin && _); [discriminate|].
  destruct (recv _ _ _) as [b' fr]. destruct (all_rcvd _ _); intro H; injection H as <-; cbn; auto.
Qed.

(* implicit open: for every history, yielded ++ queued is exactly the ids of indices 0..next-1,
   in order and without repetition *)
Theorem c12_implicit_open : forall strict mono peer ops s,
  r_next s = (0, 0) -> Rinv peer (rl_exec strict mono peer ops (rl_init s)).
Proof. intros strict mono peer ops s H0. apply Rinv_exec, Rinv_init, H0. Qed.

Theorem c12_implicit_once : forall strict mono peer ops s d,
  r_next s = (0, 0) ->
  NoDup (qget (rl_y (rl_exec strict mono peer ops (rl_init s))) d ++ qget (rl_q (rl_exec strict mono peer ops (rl_init s))) d).
Proof. intros strict mono peer ops s d H0. apply (Rinv_NoDup peer), Rinv_exec, Rinv_init, H0. Qed.

Theorem c12_implicit_all : forall strict mono s d idx s' first last up,
  try_accept_sid strict mono s d idx = (s', AccNew first last, up) ->
  need_create first last = range_nat (pget (r_next s) d) (N.to_nat (idx + 1 - pget (r_next s) d))
  /\ pget (r_next s') d = idx + 1.
Proof.
  intros strict mono s d idx s' first last up H.
  destruct (try_accept_spec _ _ _ _ _ _ _ _ H) as (-> & -> & _ & _ & -> & _). rewrite pget_pset_same. auto.
Qed.


(* whole-DataStreams op lists (simulation of ds_step by the Sid / listener components) *)
Theorem c12_ds_simulates_local : forall v s o,
  exists lops, (op_no_reject o -> Forall no_reject lops)
               /\ d_l (fst (ds_step v s o)) = fst (l_exec (d_role s) (d_l s) lops)
               /\ d_role (fst (ds_step v s o)) = d_role s.
Proof.
  intros v s o. destruct (ds_step_spec v s ([], []) o) as ([R _] & (lops & L) & _). exists lops. tauto.
Qed.

Theorem c12_ds_simulates_remote : forall v s y o,
  Sim v s y (fst (ds_step v s o)) (accept_yield o (snd (ds_step v s o)) y).
Proof. intros v s y o. apply ds_step_spec. Qed.

Theorem c12_open_bound_ds : forall v ops s,
  Forall op_no_reject ops -> Linv (d_l s) -> Linv (d_l (ds_exec v s ops)).
Proof.
  intros v ops s F I. pose proof (ds_exec_sim v ops s ([], [])) as H. rewrite <- (ds_exec_y_state v s ([], []) ops).
  destruct (ds_exec_y v s ([], []) ops) as [s' y']. destruct (proj2 H F) as (lops & NR & E).
  cbn [fst]. rewrite E. apply c12_open_bound; assumption.
Qed.

(* y' = the ids the ACCEPT observations yielded, in order; queued = Listener queues *)
Theorem c12_implicit_open_ds : forall v ops s y,
  Rinv (peer_of (d_role s)) (rl_of s y) ->
  let '(s', y') := ds_exec_y v s y ops in
  d_role s' = d_role s /\ Rinv (peer_of (d_role s)) (rl_of s' y').
Proof.
  intros v ops s y I. pose proof (ds_exec_sim v ops s y) as H. destruct (ds_exec_y v s y ops) as [s' y'].
  destruct H as [[R [rops <-]] _]. split; [exact R|apply Rinv_exec, I].
Qed.

Theorem c12_implicit_open_ds_init : forall r c loc rem mem,
  Rinv (peer_of r) (rl_of (ds_init r c loc rem mem) ([], [])).
Proof. intros r c loc rem mem d. unfold rl_of, ds_init. cbn. destruct d; reflexivity. Qed.

(* F27 repaired: the advertised MAX_STREAMS limit *)
Theorem c12_limit_monotone : forall strict peer ops x,
  max_le (r_max (rl_s x)) (r_max (rl_s (rl_exec strict true peer ops x))).
Proof.
  intros strict peer ops.
  unfold rl_exec. induction ops as [|o rest IH]; intro x; cbn [fold_left]; [intro; lia|].
  intro d. pose proof (max_le_step strict peer x o d).
  pose proof (IH (rl_step strict true peer x o) d). lia.
Qed.

Theorem c12_limit_monotone_ds : forall v ops s,
  fix27 v = true -> max_le (r_max (d_r s)) (r_max (d_r (ds_exec v s ops))).
Proof.
  intros v ops s HV. pose proof (ds_exec_sim v ops s ([], [])) as H. rewrite <- (ds_exec_y_state v s ([], []) ops).
  destruct (ds_exec_y v s ([], []) ops) as [s' y']. destruct H as [[_ [rops E]] _]. rewrite HV in E.
  pose proof (c12_limit_monotone false (peer_of (d_role s)) rops (rl_of s ([], []))) as M.
  rewrite E in M. exact M.
Qed.

(* a MAX_STREAMS frame is queued exactly when the limit goes up, and carries the new limit *)
Theorem c12_limit_frames : forall s d x,
  (max_le (r_max s) (r_max (fst (on_end_of_stream true s d x)))
   /\ match snd (on_end_of_stream true s d x) with
      | Some a => a = pget (r_max (fst (on_end_of_stream true s d x))) d /\ pget (r_max s) d < a
      | None => r_max (fst (on_end_of_stream true s d x)) = r_max s
      end)
  /\ (max_le (r_max s) (r_max (fst (recv_streams_blocked true s d x)))
      /\ match snd (recv_streams_blocked true s d x) with
         | Some a => a = pget (r_max (fst (recv_streams_blocked true s d x))) d /\ pget (r_max s) d < a
         | None => r_max (fst (recv_streams_blocked true s d x)) = r_max s
         end).
Proof. intros s d x. split; [apply end_limit_raised|apply blocked_limit_raised]. Qed.

(* the value in the peer's STREAMS_BLOCKED frame only decides "stale or not": the new limit is a
   function of the receiver's own state (hostile values included) *)
Theorem c12_blocked_own_state : forall s d v v',
  pget (r_max s) d <= v -> pget (r_max s) d <= v' ->
  recv_streams_blocked true s d v = recv_streams_blocked true s d v'.
Proof. intros s d v v' H H'. apply N.ltb_ge in H, H'. rewrite !blocked_eq, H, H'. reflexivity. Qed.

Theorem c12_blocked_stale : forall s d v,
  v < pget (r_max s) d -> recv_streams_blocked true s d v = (s, None).
Proof. intros s d v H. apply N.ltb_lt in H. rewrite blocked_eq, H. reflexivity. Qed.

Theorem c12_blocked_demand : forall s d v,
  r_ctrl s = Demand -> pget (r_max s) d <= v ->
  recv_streams_blocked true s d v
  = (mkrsid (pset (r_max s) d (pget (r_max s) d + 1)) (r_next s) Demand, Some (pget (r_max s) d + 1)).
Proof. intros s d v Hc H. apply N.ltb_ge in H. rewrite blocked_eq, Hc, H. reflexivity. Qed.

Theorem c12_blocked_consistent : forall s d v ms,
  r_ctrl s = Consistent ms -> fst (recv_streams_blocked true s d v) = s /\ snd (recv_streams_blocked true s d v) = None.
Proof. intros s d v ms Hc. rewrite blocked_eq, Hc. destruct (v <? _); auto. Qed.

Theorem c12_end_consistent : forall s d idx,
  ctrl_synced s ->
  ctrl_synced (fst (on_end_of_stream true s d idx))
  /\ match r_ctrl s with
     | Consistent _ => snd (on_end_of_stream true s d idx) = Some (pget (r_max s) d + 1)
     | Demand => snd (on_end_of_stream true s d idx) = None
     end.
Proof.
  intros s d idx.
  unfold ctrl_synced, on_end_of_stream. destruct (r_ctrl s) as [ms|] eqn:C.
  - intros ->. cbn [ctrl_on_end apply_up raise_limit].
    destruct (N.ltb_spec (pget (r_max s) d) (pget (r_max s) d + 1)); [|lia].
    cbn [fst snd r_ctrl r_max]. auto.
  - intros _. cbn. auto.
Qed.

(* before the repair (F27): DemandConcurrency, limit 6, STREAMS_BLOCKED(1) -> limit 2 *)
Theorem c12_limit_monotone_refuted :
  exists s d v, pget (r_max (fst (recv_streams_blocked false s d v))) d < pget (r_max s) d.
Proof. exists (mkrsid (6, 6) (0, 0) Demand), Bi, 1. vm_compute. reflexivity. Qed.

(* the F27 witness on the whole model: as it was, MAX_STREAMS(bidi, 2) goes out and the permitted
   stream 16 (index 4 < 6) is refused; repaired, the stale frame is ignored and the stream accepted *)
Example c12_f27_replay :
  let cfg := [1; 0; 1; 6; 6; 100000; 100; 100; 100; 5; 5; 100000; 700; 1000; 0; 0; 0; 0; 0; 0; 0]%Z in
  let ops := [(0, [0%Z]); (12, [0; 1]%Z); (7, [16; 0; 1; 0]%Z)] in
  run_streams cfg ops = [[1; 0]; [0; 0; 1; 5; 0; 2; 0; 0]; [4; 0; 0]]%Z
  /\ run_streams_fixed cfg ops = [[1; 0]; [0; 0; 0]; [0; 1; 0]]%Z.
Proof. vm_compute. split; reflexivity. Qed.

(* non-vacuity: a history with a jump to index 3, an old index, pops, a refused index, and local
   opens that hit the limit and continue after MAX_STREAMS *)
Example c12_nonvacuous :
  let x := rl_exec false true Client [RUse Bi 3; RPop Bi; RUse Bi 1; RUse Uni 0; RUse Bi 9; RPop Bi; RUse Bi 4; RPop Uni]
                   (rl_init (mkrsid (5, 1) (0, 0) (Consistent (5, 1)))) in
  qget (rl_y x) Bi = [0; 4] /\ qget (rl_q x) Bi = [8; 12; 16] /\ qget (rl_y x) Uni = [2]
  /\ snd (l_exec Server (mklsid (1, 0) (0, 0)) [LAlloc Bi; LAlloc Bi; LIncrease Bi 3; LAlloc Bi; LAlloc Uni]) = [1; 5].
Proof. vm_compute. repeat split. Qed.

Print Assumptions c12_open_bound.
Print Assumptions c12_open_ids.
Print Assumptions c12_open_limit_is_granted.
Print Assumptions c12_accept_bound.
Print Assumptions c12_accept_le.
Print Assumptions c12_accept_exact.
Print Assumptions c12_accept_bound_refuted.
Print Assumptions c12_f14_replay.
Print Assumptions c12_accept_bound_rfc.
Print Assumptions c12_direction.
Print Assumptions c12_direction_only.
Print Assumptions c12_final_size_known.
Print Assumptions c12_final_size_shrink.
Print Assumptions c12_final_size_reset.
Print Assumptions c12_final_size_only.
Print Assumptions c12_final_size_stable.
Print Assumptions c12_implicit_open.
Print Assumptions c12_implicit_once.
Print Assumptions c12_implicit_all.
Print Assumptions c12_nonvacuous.
Print Assumptions c12_ds_simulates_local.
Print Assumptions c12_ds_simulates_remote.
Print Assumptions c12_open_bound_ds.
Print Assumptions c12_implicit_open_ds.
Print Assumptions c12_implicit_open_ds_init.
Print Assumptions c12_limit_monotone.
Print Assumptions c12_limit_monotone_ds.
Print Assumptions c12_limit_frames.
Print Assumptions c12_blocked_own_state.
Print Assumptions c12_blocked_stale.
Print Assumptions c12_blocked_demand.
Print Assumptions c12_blocked_consistent.
Print Assumptions c12_end_consistent.
Print Assumptions c12_limit_monotone_refuted.
Print Assumptions c12_f27_replay.
