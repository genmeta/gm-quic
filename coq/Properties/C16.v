(* C16 — no wake-up is ever lost.
   Only the property theorems live here: each is read off a lemma or an invariant of Proofs/Wakers.v.

   `NoLostWakeup P cond` (Lib/Interleave.v) unfolds to
     forall s, reach (lift P) s -> forall w,
       t_sleep (snd s w) = true -> cond (fst s) (t_arg (snd s w)) -> t_pend (snd s w) = true
   i.e. in EVERY reachable state of the protocol (any number of steps, any interleaving of polls,
   re-polls, drops, notifier and closer calls, one label = one lock-protected call) a task whose
   last poll returned Pending and whose condition holds -- the condition includes "closed / failed"
   -- has a pending wake.  `Observes P cond`: a poll made while the condition holds does not park
   ("observes the condition on its own").
   The composite protocols (a condition behind one lock or atomic, the Waker in a SendWaker behind
   another) are bespoke systems with program counters; their theorems are stated on `reach` directly,
   "pending wake, or a notifier call is still between its set and its wake_by", with the quiescent
   corollary. *)
From Coq Require Import List NArith ZArith Lia.
From GQ Require Import Lib.Interleave Model.Wakers Proofs.Wakers.
Import ListNotations.

(* ---- 1. SendWaker (qbase/src/net/tx.rs) *)
Theorem c16_sendwaker : NoLostWakeup sendwaker_proto sw_cond.
Proof. exact (proj1 p_c16_sendwaker). Qed.
Theorem c16_sendwaker_observes : Observes sendwaker_proto sw_cond.
Proof. exact (proj2 p_c16_sendwaker). Qed.

(* ---- 2. AsyncDeque (qbase/src/util/async_deque.rs; RecvBuffer of qconnection/src/path/util.rs) *)
Theorem c16_asyncdeque : NoLostWakeup asyncdeque_proto ad_cond.
Proof. exact (proj1 p_c16_asyncdeque). Qed.
Theorem c16_asyncdeque_observes : Observes asyncdeque_proto ad_cond.
Proof. exact (proj2 p_c16_asyncdeque). Qed.
Theorem c16_asyncdeque_close : forall s, reach (lift asyncdeque_proto) s -> ad_q (fst s) = None ->
  forall w, t_sleep (snd s w) = true -> t_pend (snd s w) = true.
Proof. intros s Hr Hq w Hs. apply (proj1 p_c16_asyncdeque s Hr w Hs). unfold ad_cond. rewrite Hq. exact I. Qed.

(* ---- 3. Receiving / ArcReceiving (qbase/src/lib.rs, frame/io.rs) -- the code as it is: finding F1 *)
Theorem c16_receiving_refuted :
  exists tr s, run (lift receiving_proto) (linit receiving_proto) tr = Some s /\
               t_sleep (snd s 0) = true /\ rc_cond (fst s) (t_arg (snd s 0)) /\ t_pend (snd s 0) = false.
Proof. exact p_c16_receiving_refuted. Qed.
Theorem c16_receiving_erase_refuted :
  exists tr s, run (lift receiving_proto) (linit receiving_proto) tr = Some s /\
               fst s = RcPending /\
               tr = [@LOp receiving_proto (RcRecv 7); @LOp receiving_proto (RcRecv 8)].
Proof. eexists. eexists. split; [|split; [|reflexivity]]; vm_compute; reflexivity. Qed.
Theorem c16_receiving_cond : forall s, reach (lift receiving_proto) s ->
  forall w, ~ f1_class s w ->
  t_sleep (snd s w) = true -> rc_cond (fst s) (t_arg (snd s w)) -> t_pend (snd s w) = true.
Proof. intros s _ w Hn Hs. contradiction. Qed.
Theorem c16_receiving_observes : Observes receiving_proto rc_cond.
Proof.
  intros [o t] _ w a o' wk r Hc H. cbn in *. destruct (single w); [|discriminate].
  unfold rc_cond in Hc. destruct o; try contradiction; inv H; discriminate.
Qed.
(*      the repaired code *)
Theorem c16_receiving_fixed : NoLostWakeup receiving_fixed_proto rc_cond.
Proof. exact (proj1 p_c16_receiving_fixed). Qed.
Theorem c16_receiving_fixed_observes : Observes receiving_fixed_proto rc_cond.
Proof. exact (proj2 p_c16_receiving_fixed). Qed.
Theorem c16_receiving_fixed_keeps : forall o op o' wk r,
  oper receiving_fixed_proto o op = Some (o', wk, r) -> rc_cond o tt -> rc_cond o' tt.
Proof. intros o op o' wk r H Hc. cbn in H. destruct op, o; inv H; cbn in *; auto. Qed.

(* ---- 4. Wakers / WakerVec (qbase/src/util/wakers.rs), m waiters *)
Theorem c16_wakervec : NoLostWakeup wakervec_proto wv_cond.
Proof. exact (proj1 p_c16_wakervec). Qed.
Theorem c16_wakervec_observes : Observes wakervec_proto wv_cond.
Proof. exact (proj2 p_c16_wakervec). Qed.

(* ---- 5. Parameters::{poll_ready, recv_remote_params, initial_scid_from_peer_need_equal}, on_conn_error
           (qbase/src/param.rs), m waiters *)
Theorem c16_params : NoLostWakeup params_proto pm_cond.
Proof. exact (proj1 p_c16_params). Qed.
Theorem c16_params_observes : Observes params_proto pm_cond.
Proof. exact (proj2 p_c16_params). Qed.

(* ---- 6. CidCell + SendWaker (qbase/src/cid/remote_cid.rs), two locks *)
Theorem c16_cidcell : forall s, reach cidcell_sys s ->
  t_sleep (cc_t s) = true -> cc_cond s -> t_pend (cc_t s) = true.
Proof.
  intros s Hr Hs Hc. destruct (sw_waits_asleep (cc_inv_reach s Hr) Hs) as [_ [X|[_ X]]]; [exact X|contradiction].
Qed.
(*      between borrow_cid and wait_for: if the condition has become true, wait_for returns at once *)
Theorem c16_cidcell_observes : forall s, reach cidcell_sys s ->
  cc_pc s = CNeed -> cc_cond s -> exists s', cc_exec s CcWait = Some (s', 4%Z).
Proof.
  intros s Hr Hp Hc. destruct (sw_waits_need (cc_inv_reach s Hr) Hp) as [_ X].
  unfold cc_exec. rewrite Hp, (sw_poll_bit _ _ cid_in). destruct (sw_state (cc_sw s) CIDBIT).
  - eexists. reflexivity.
  - destruct (X eq_refl). contradiction.
Qed.

(* ---- 7. KeysState (qbase/src/packet/keys.rs): ArcKeys; ArcZeroRttKeys / OneRttKeysState have the same shape *)
Theorem c16_keys : NoLostWakeup keys_proto ky_cond.
Proof. exact (proj1 p_c16_keys). Qed.
Theorem c16_keys_observes : Observes keys_proto ky_cond.
Proof. exact (proj2 p_c16_keys). Qed.

(* ---- 8. LocalStreamIds::poll_alloc_sid under DataStreams (qbase/src/sid/local_sid.rs, qrecovery/src/streams/raw.rs),
           m waiters; for every initial limit m0 *)
(*      raising the limit never loses a wake-up: the code as it is (false) and the repaired code (true) *)
Theorem c16_sid_limit : forall fixed m0, NoLostWakeup (sid_gen_proto fixed m0) sd_cond_limit.
Proof. intros fixed m0. apply NoLostWakeup_weaken with (2 := proj1 (sid_gen fixed m0)). intros o a H. right. exact H. Qed.
(*      the code as it is: the connection error does not wake the parked task -- finding F23 *)
Theorem c16_sid_close_refuted :
  exists tr s, run (lift (sid_proto 0)) (linit (sid_proto 0)) tr = Some s /\
               t_sleep (snd s 0) = true /\ sd_cond (fst s) (t_arg (snd s 0)) /\ t_pend (snd s 0) = false.
Proof. exists f23_trace. eexists. split; [vm_compute; reflexivity|]. cbn. repeat split. left. reflexivity. Qed.
Theorem c16_sid_cond : forall m0 s, reach (lift (sid_proto m0)) s ->
  sd_closed (fst s) = false ->
  forall w, t_sleep (snd s w) = true -> sd_cond (fst s) (t_arg (snd s w)) -> t_pend (snd s w) = true.
Proof. intros m0. intros s Hr Hc w Hs [X|X]; [congruence|]. exact (c16_sid_limit false m0 s Hr w Hs X). Qed.
(*      the repaired code: full statement, including the connection error *)
Theorem c16_sid_fixed : forall m0, NoLostWakeup (sid_fixed_proto m0) sd_cond.
Proof. intros m0. apply NoLostWakeup_weaken with (2 := proj1 (sid_gen true m0)). intros o a [H|H]; [left; auto|right; exact H]. Qed.
Theorem c16_sid_observes : forall fixed m0, Observes (sid_gen_proto fixed m0) sd_cond.
Proof. exact (fun fixed m0 => proj2 (sid_gen fixed m0)). Qed.

(* ---- 9. stream sender: writable / flush / shutdown wakers (qrecovery/src/send/sender.rs), for every initial window *)
Theorem c16_sender : forall m0, NoLostWakeup (sender_proto m0) sn_cond.
Proof. exact (fun m0 => proj1 (p_c16_sender m0)). Qed.
Theorem c16_sender_observes : forall m0, Observes (sender_proto m0) sn_cond.
Proof. exact (fun m0 => proj2 (p_c16_sender m0)). Qed.

(* ---- 10. stream receiver: read_waker (qrecovery/src/recv/recver.rs) *)
Theorem c16_recver : NoLostWakeup recver_proto rv_cond.
Proof. exact (proj1 p_c16_recver). Qed.
Theorem c16_recver_observes : Observes recver_proto rv_cond.
Proof. exact (proj2 p_c16_recver). Qed.
(*       one frame may be lost and retransmitted: with the FIN behind the hole SizeKnown is a resting state in
         which the reader parks (reachable witness) ... *)
Theorem c16_recver_sizeknown_rests :
  exists s, run (lift recver_proto) (linit recver_proto)
              [@LOp recver_proto (RvLose 2); @LOp recver_proto (RvFin 2); @LPoll recver_proto 0 tt] = Some s /\
            rv_st (fst s) = RvSizeKnown /\ rv_w (fst s) = Some 0 /\ t_sleep (snd s 0) = true /\ t_pend (snd s 0) = false.
Proof. eexists. split; [vm_compute; reflexivity|]. cbn. repeat split. Qed.
(*       ... and whatever ends the wait there or in Recv -- RESET_STREAM, the connection error, the retransmission --
         invokes the parked reader's Waker in the same lock-protected call *)
Theorem c16_recver_end_wakes : forall o op o' wk r w,
  oper recver_proto o op = Some (o', wk, r) ->
  rv_live (rv_st o) = true -> rv_w o = Some w ->
  op = RvReset \/ op = RvConnError \/ op = RvRetx ->
  In w wk /\ rv_w o' = None.
Proof.
  intros o op o' wk r w H Hl Hr Hop. cbn [oper recver_proto] in H. unfold rv_oper, rv_set in H.
  destruct Hop as [->|[->| ->]]; try rewrite Hl in H.
  - inv H. split; [apply in_take_waker; exact Hr|reflexivity].
  - inv H. split; [apply in_take_waker; exact Hr|reflexivity].
  - destruct (0 <? rv_hole o)%N; [|discriminate].
    destruct (rv_st o); try discriminate; inv H; (split; [apply in_take_waker; exact Hr|reflexivity]).
Qed.

(* ---- 11. crypto stream, sending side (qrecovery/src/crypto.rs) -- the code as it is: finding F24 *)
Theorem c16_crypto_flush_refuted :
  exists tr s, run (lift crypto_send_proto) (linit crypto_send_proto) tr = Some s /\
               t_sleep (snd s 0) = true /\ cs_cond (fst s) (t_arg (snd s 0)) /\ t_pend (snd s 0) = false.
Proof. exists f24_trace. eexists. split; [vm_compute; reflexivity|]. cbn. repeat split. Qed.
Theorem c16_crypto_flush_cond : forall s, reach (lift crypto_send_proto) s ->
  forall w, ~ f24_class s w ->
  t_sleep (snd s w) = true -> cs_cond (fst s) (t_arg (snd s w)) -> t_pend (snd s w) = true.
Proof.
  intros s Hr w Hn Hs _. apply (proj1 (crypto_send_gen false) s Hr w Hs).
  unfold f24_class in Hn. fold crypto_send_proto. destruct (t_arg (snd s w)); [exact I|contradiction].
Qed.
(*       the repaired code *)
Theorem c16_crypto_flush_fixed : NoLostWakeup crypto_send_fixed_proto cs_cond.
Proof. apply NoLostWakeup_weaken with (2 := proj1 (crypto_send_gen true)). intros o [] H; cbn; auto. Qed.
Theorem c16_crypto_send_observes : forall fixed, Observes (crypto_send_gen_proto fixed) cs_cond.
Proof. exact (fun fixed => proj2 (crypto_send_gen fixed)). Qed.

(* ---- 12. crypto stream, receiving side *)
Theorem c16_crypto_recv : NoLostWakeup crypto_recv_proto cr_cond.
Proof. exact (proj1 p_c16_crypto_recv). Qed.
Theorem c16_crypto_recv_observes : Observes crypto_recv_proto cr_cond.
Proof. exact (proj2 p_c16_crypto_recv). Qed.

(* ---- 13. DatagramReader (qdatagram/src/reader.rs) *)
Theorem c16_datagram : NoLostWakeup datagram_proto dg_cond.
Proof. exact (proj1 p_c16_datagram). Qed.
Theorem c16_datagram_observes : Observes datagram_proto dg_cond.
Proof. exact (proj2 p_c16_datagram). Qed.

(* ---- 14. AntiAmplifier::balance + SendWaker (qconnection/src/path/aa.rs), one label = one atomic operation,
            any number of on_rcvd / grant / abort calls in flight *)
Theorem c16_aa : forall s, reach aa_sys s ->
  t_sleep (aa_t s) = true -> aa_cond s -> t_pend (aa_t s) = true \/ In FlWake (aa_fl s).
Proof.
  intros s Hr Hs Hc. destruct (sw_waits_asleep (aa_inv_reach s Hr) Hs) as [Hn [X|X]]; [left; exact X|right; apply X].
  (* it sleeps, so it is between its methods *)
  unfold aa_due. destruct (aa_pc s); auto; contradiction Hn; discriminate.
Qed.
Theorem c16_aa_quiescent : forall s, reach aa_sys s ->
  aa_fl s = [] -> t_sleep (aa_t s) = true -> aa_cond s -> t_pend (aa_t s) = true.
Proof. intros s Hr Hq Hs Hc. destruct (c16_aa s Hr Hs Hc) as [X|X]; [exact X|]. rewrite Hq in X. destruct X. Qed.

(* ---- 15. SendBuffer::write + SendWaker (qconnection/src/path/util.rs), two locks -- the code as it is
            (wake_by, then store): finding F36, a lost wake-up at quiescence *)
Theorem c16_sendbuffer_refuted :
  exists tr s, run sendbuffer_sys sb_init tr = Some s /\
               t_sleep (sb_t s) = true /\ sb_cond s /\ sb_nw s = 0 /\ t_pend (sb_t s) = false.
Proof. exists f36_trace. eexists. split; [vm_compute; reflexivity|]. cbn. repeat split. Qed.
(*       store, then wake_by; 0 < sb_nw: a writer is still between its two steps, and will call wake_by *)
Theorem c16_sendbuffer_fixed : forall s, reach sendbuffer_fixed_sys s ->
  t_sleep (sb_t s) = true -> sb_cond s -> t_pend (sb_t s) = true \/ 0 < sb_nw s.
Proof.
  intros s Hr Hs Hc. destruct (sw_waits_asleep (sbf_inv_reach s Hr) Hs) as [_ [X|X]]; auto.
Qed.
Theorem c16_sendbuffer_fixed_quiescent : forall s, reach sendbuffer_fixed_sys s ->
  sb_nw s = 0 -> t_sleep (sb_t s) = true -> sb_cond s -> t_pend (sb_t s) = true.
Proof. intros s Hr Hq Hs Hc. destruct (c16_sendbuffer_fixed s Hr Hs Hc) as [X|X]; [exact X|lia]. Qed.

(* ---- 17. Wakers::combine_with (qbase/src/util/wakers.rs) over an event source, m waiters: the calling task is in
            the set BEFORE the inner poll gets the combined waker; the notifier (a datagram, a spurious event, poll_close)
            may run at any lock-protected step, including between the inner poll's registration and its return *)
Theorem c16_combine : NoLostWakeup combine_proto cb_cond.
Proof. exact (proj1 p_c16_combine). Qed.
Theorem c16_combine_observes : Observes combine_proto cb_cond_obs.
Proof. exact (proj2 p_c16_combine). Qed.
Theorem c16_combine_inner_wake : forall o w a o' wk,
  poll combine_proto o w a = Some (o', wk, Pending) -> a <> CbPlain -> In w wk.
Proof.
  intros o w a o' wk H Ha. injection H as H. destruct (cb_poll_pending _ _ _ _ _ H) as [_ Hw].
  destruct a; [contradiction|exact Hw..].
Qed.

(* non-vacuity: sleeping states with a pending wake are reachable in the sound protocols *)
Example c16_nonvacuous :
  (exists s, run (lift asyncdeque_proto) (linit _) [@LPoll asyncdeque_proto 0 tt; @LOp asyncdeque_proto (AdPushBack 5)] = Some s /\
             t_sleep (snd s 0) = true /\ ad_cond (fst s) tt /\ t_pend (snd s 0) = true /\ t_cnt (snd s 0) = 1%N) /\
  (exists s, run (lift (sid_fixed_proto 0)) (linit _)
               [@LPoll (sid_fixed_proto 0) 0 tt; @LPoll (sid_fixed_proto 0) 1 tt; @LOp (sid_fixed_proto 0) SdConnError] = Some s /\
             t_pend (snd s 0) = true /\ t_pend (snd s 1) = true) /\
  (exists s, run aa_sys aa_init [AaB1; AaB2; AaRcvd 1; AaB3; AaFl 0; AaWait; AaFl 0] = Some s /\
             t_sleep (aa_t s) = true /\ aa_credit s = 3%N /\ t_pend (aa_t s) = true).
Proof.
  split; [|split]; eexists; (split; [vm_compute; reflexivity|]); cbn; repeat split.
Qed.

Print Assumptions c16_sendwaker.
Print Assumptions c16_sendwaker_observes.
Print Assumptions c16_asyncdeque.
Print Assumptions c16_asyncdeque_observes.
Print Assumptions c16_asyncdeque_close.
Print Assumptions c16_receiving_refuted.
Print Assumptions c16_receiving_erase_refuted.
Print Assumptions c16_receiving_cond.
Print Assumptions c16_receiving_observes.
Print Assumptions c16_receiving_fixed.
Print Assumptions c16_receiving_fixed_observes.
Print Assumptions c16_receiving_fixed_keeps.
Print Assumptions c16_wakervec.
Print Assumptions c16_wakervec_observes.
Print Assumptions c16_params.
Print Assumptions c16_params_observes.
Print Assumptions c16_cidcell.
Print Assumptions c16_cidcell_observes.
Print Assumptions c16_keys.
Print Assumptions c16_keys_observes.
Print Assumptions c16_sid_limit.
Print Assumptions c16_sid_close_refuted.
Print Assumptions c16_sid_cond.
Print Assumptions c16_sid_fixed.
Print Assumptions c16_sid_observes.
Print Assumptions c16_sender.
Print Assumptions c16_sender_observes.
Print Assumptions c16_recver.
Print Assumptions c16_recver_observes.
Print Assumptions c16_recver_sizeknown_rests.
Print Assumptions c16_recver_end_wakes.
Print Assumptions c16_crypto_flush_refuted.
Print Assumptions c16_crypto_flush_cond.
Print Assumptions c16_crypto_flush_fixed.
Print Assumptions c16_crypto_send_observes.
Print Assumptions c16_crypto_recv.
Print Assumptions c16_crypto_recv_observes.
Print Assumptions c16_datagram.
Print Assumptions c16_datagram_observes.
Print Assumptions c16_aa.
Print Assumptions c16_aa_quiescent.
Print Assumptions c16_sendbuffer_refuted.
Print Assumptions c16_sendbuffer_fixed.
Print Assumptions c16_sendbuffer_fixed_quiescent.
Print Assumptions c16_combine.
Print Assumptions c16_combine_observes.
Print Assumptions c16_combine_inner_wake.
Print Assumptions c16_nonvacuous.
