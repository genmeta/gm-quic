(* C03 — decoding untrusted bytes never panics, hangs or mis-frames.
   Only the property theorems live here; the lemmas they rest on are in Proofs/FramesTotal.v and Proofs/Packets.v. *)
From Coq Require Import List ZArith NArith Lia.
From GQ Require Import Lib.Wire Model.Varint Model.Frames Model.Packets Model.Params Proofs.FramesTotal Proofs.Packets.
Import ListNotations.
Local Open Scope Z_scope.

(* for every packet type and every byte string, decoding one frame never reaches a panic site … *)
Theorem c03_frame_no_panic : forall p bs s, be_frame p bs <> FPanic s.
Proof.
  intros p bs s. unfold be_frame. destruct (be_varint bs) as [code rest| | |s'] eqn:E; try discriminate.
  - destruct (ft_of_code code) as [t|]; [|discriminate].
    destruct (negb (belongs t p)); [discriminate|].
    destruct (be_body t rest) as [f r| | |s'] eqn:Eb; try discriminate.
    elim (safe_no_panic _ (safe_be_body t) _ _ Eb).
  - elim (safe_no_panic _ safe_be_varint _ _ E).
Qed.

(* … and a decoded frame consumed at least one byte and no more than the buffer holds *)
Theorem c03_frame_consumed : forall p bs c f t, be_frame p bs = FOk c f t -> 0 < c <= zlen bs.
Proof.
  intros p bs c f t H. destruct (be_frame_ok _ _ _ _ _ H) as (code & remain & rest & Ev & _ & _ & Eb & ->).
  apply strict_be_varint in Ev. apply (safe_le _ (safe_be_body t)) in Eb.
  pose proof (Proofs.Frames.zlen_nonneg rest). lia.
Qed.

(* a frame is delivered only in a packet type that admits its type *)
Theorem c03_frame_type_checked : forall p bs c f t, be_frame p bs = FOk c f t -> belongs t p = true.
Proof. intros p bs c f t H. destruct (be_frame_ok _ _ _ _ _ H) as (code & remain & rest & _ & _ & Hb & _). exact Hb. Qed.

(* iterating over a whole payload: total consumption stays inside the payload, no result is a panic,
   and |payload|+1 iterations always suffice (the reader cannot loop without consuming input) *)
Theorem c03_frames_of : forall p bs,
  total_consumed (frames_of p bs) <= zlen bs /\
  (forall r, In r (frames_of p bs) -> forall s, r <> FPanic s) /\
  (forall extra, read_frames (extra + S (length bs)) p bs = frames_of p bs).
Proof.
  intros p bs.
  destruct (reader_whole fres (be_frame p) (fun r => match r with FOk c _ _ => Some c | _ => None end) consumed_of
              (fun fuel => read_frames fuel p)) with (bs := bs) as (H1 & H2 & H3).
  - intros [|fuel]; reflexivity.
  - intros fuel [|b t] Hne; [congruence|]. cbn [read_frames]. destruct (be_frame p (b :: t)); reflexivity.
  - intros bs' c. destruct (be_frame p bs') eqn:E; try discriminate. intros [= <-]. exact (c03_frame_consumed _ _ _ _ _ E).
  - intros [ | | ]; reflexivity.
  - split; [exact H1|]. split; [|exact H3].
    intros r Hin s. destruct (H2 r Hin) as [bs' ->]. apply c03_frame_no_panic.
Qed.

(* every frame decoding error is the connection error the protocol prescribes
   (table regenerated from frame/error.rs and error.rs on every run) *)
Theorem c03_error_mapping : forall e,
  quic_error_of e = (match e with ENoFrames => EK_PROTOCOL_VIOLATION | _ => EK_FRAME_ENCODING end).
Proof. destruct e; reflexivity. Qed.

(* the first look at a datagram: for every dcid length and every byte string be_packet never panics
   (this is the repaired behaviour: a connection-id length above 20 used to hit unreachable!) … *)
Theorem c03_packet_no_panic : forall n dg s, be_packet n dg <> PPanic s.
Proof. exact p_c03_packet_no_panic. Qed.

(* … a parsed packet lies inside the datagram … *)
Theorem c03_packet_bounds : forall n dg h total off,
  be_packet n dg = POk h total off -> 0 < total <= zlen dg /\ 0 <= off <= total.
Proof. exact p_c03_packet_bounds. Qed.

(* … and splitting a datagram into coalesced packets terminates, stays inside it and stops at the first error *)
Theorem c03_packets_of : forall n dg,
  sum_totals (packets_of n dg) <= zlen dg /\
  (forall r, In r (packets_of n dg) -> forall s, r <> PPanic s) /\
  (forall extra, read_packets (extra + S (length dg)) n dg = packets_of n dg).
Proof.
  intros n dg.
  destruct (reader_whole pres (be_packet n) (fun r => match r with POk _ t _ => Some t | _ => None end) ptotal
              (fun fuel => read_packets fuel n)) with (bs := dg) as (H1 & H2 & H3).
  - intros [|fuel]; reflexivity.
  - intros fuel [|b t] Hne; [congruence|]. cbn [read_packets]. destruct (be_packet n (b :: t)); reflexivity.
  - intros bs c. destruct (be_packet n bs) eqn:E; try discriminate. intros [= <-]. apply (p_c03_packet_bounds _ _ _ _ _ E).
  - intros [ | | ]; reflexivity.
  - split; [exact H1|]. split; [|exact H3].
    intros r Hin s. destruct (H2 r Hin) as [bs' ->]. apply p_c03_packet_no_panic.
Qed.

(* transport parameters of either role: never a panic, the loop terminates within |blob|+1 rounds,
   and every failure is the TRANSPORT_PARAMETER_ERROR connection error *)
Theorem c03_params_no_panic : forall r buf s, parse_params r buf <> PaPanic s.
Proof.
  intros r buf s. unfold parse_params. pose proof (parse_loop_no_panic r (S (length buf)) [] buf) as H.
  destruct (parse_loop (S (length buf)) r [] buf) as [m| |st]; [|discriminate|elim (H st eq_refl)].
  destruct (forallb _ _); discriminate.
Qed.

(* the loop never runs out of fuel: every raw parameter consumes at least two bytes *)
Theorem c03_params_fuel : forall r fuel m buf, (length buf < fuel)%nat ->
  parse_loop (S fuel) r m buf = parse_loop fuel r m buf.
Proof.
  intro r. induction fuel as [|fuel IH]; intros m buf Hf; [inversion Hf|].
  destruct buf as [|b t]; [reflexivity|]. rewrite !parse_loop_S by discriminate.
  destruct (be_raw_parameter (b :: t)) as [[id data] rest| | |st] eqn:E; try reflexivity.
  apply strict_be_raw_parameter in E.
  assert (Hlen : (length rest < fuel)%nat) by (unfold zlen in E; lia).
  destruct (param_row_of id) as [row|]; [|now apply IH].
  destruct (negb (belong_to id r)); [reflexivity|].
  destruct (be_param_value (p_type row) data) as [v|]; [|reflexivity].
  destruct (in_bound row v); [now apply IH|reflexivity].
Qed.

Theorem c03_param_error_kind : param_error_kind = EK_TRANSPORT_PARAMETER.
Proof. reflexivity. Qed.

Example c03_nonvacuous :
  be_frame PInitial [6; 0; 5; 1] = FErr EIncompleteFrame /\
  be_frame PInitial [8; 0] = FErr EWrongType /\
  be_frame POneRtt [31] = FErr EInvalidType /\
  frames_of POneRtt [1; 0; 0; 1] = [FOk 1 Ping TPing; FOk 1 Padding TPadding; FOk 1 Padding TPadding; FOk 1 Ping TPing].
Proof. vm_compute. repeat split. Qed.

Print Assumptions c03_frame_no_panic.
Print Assumptions c03_frame_consumed.
Print Assumptions c03_frame_type_checked.
Print Assumptions c03_frames_of.
Print Assumptions c03_error_mapping.
Print Assumptions c03_packet_no_panic.
Print Assumptions c03_packet_bounds.
Print Assumptions c03_packets_of.
Print Assumptions c03_params_no_panic.
Print Assumptions c03_params_fuel.
Print Assumptions c03_param_error_kind.
Print Assumptions c03_nonvacuous.
