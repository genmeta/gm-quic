(* C14 — connection IDs are issued, used, retired and routed consistently.
   Only the property theorems live here: each follows in a few lines from the lemmas of Proofs/*.v
   and its assumptions are printed for the audit.

   Models: Model/LocalCid.v (LocalCids), Model/RemoteCid.v (RemoteCids, CidCell), Model/Router.v
   (QuicRouter table), Model/Cid.v (one endpoint: one RemoteCids + any number of connections on
   one shared router; operation lists [steps]).  Randomness is the oracle [rnd : N -> cid] with any
   [fuel]; the limit check of recv_new_cid_frame is a pair (test before processing, test after):
   [no_pre]/[post_count] = the code as it stands since the fix of F18 (no test before, count of the
   active IDs after processing: RFC 9000 5.1.1), [chk_coded]/[no_post] = the code before that fix,
   [chk_fixed]/[no_post] = the minimal span repair (never applied, kept for reference).  Which one
   the running code is tied to is decided by streams/cid.json ("run_cid_count", i.e. the first). *)
From Coq Require Import List NArith ZArith Bool Permutation Lia.
From GQ Require Import Lib.Base Model.Router Model.LocalCid Model.RemoteCid Model.Cid
  Proofs.LocalCid Proofs.RemoteCid Proofs.RemoteInv Proofs.Cid Proofs.CidSys Proofs.CidProps.
Import ListNotations.
Local Open Scope N_scope.

(* our own IDs, in any ISSUED environment (E, gen, ret) and any interleaving with it: once the peer's limit
   is set, unretired IDs never exceed it (before: at most the initial 2) *)
Theorem c14_local_count : forall E gen ret l fs, lreach E gen ret l fs ->
  forall n, l_limit l = Some n -> l_active l <= n.
Proof. intros E gen ret l fs H. exact (proj1 (lreach_count E gen ret l fs H)). Qed.

Theorem c14_local_count_unset : forall E gen ret l fs, lreach E gen ret l fs ->
  l_limit l = None -> l_active l <= 2.
Proof. intros E gen ret l fs H. exact (proj2 (lreach_count E gen ret l fs H)). Qed.

(* the NEW_CONNECTION_ID frames sent so far carry the sequence numbers 1, 2, 3, ... in order,
   the next one is `largest`, and retire_prior_to never exceeds the sequence number *)
Theorem c14_local_consecutive : forall E gen ret l fs, lreach E gen ret l fs ->
  map fseq fs = nseq 1 (length fs) /\ l_largest l = 1 + lenN fs /\
  Forall (fun f => frpt f <= fseq f) fs.
Proof. intros E gen ret l fs H. exact (proj1 (lreach_inv E gen ret l fs H)). Qed.

(* retiring an active ID issues exactly one replacement (next number), retires exactly that ID from
   the router and keeps the number of active IDs; retiring an inactive one changes nothing *)
Theorem c14_local_replace : forall E gen ret e l seq,
  seq < l_largest l ->
  match l_get l seq with
  | Some (Some c) =>
      l_recv_retire E gen ret e l seq = None \/
      exists e1 c' l',
        l_recv_retire E gen ret e l seq = Some (ret e1 c, l', [LNew (l_largest l) (l_off l') c'], LOk) /\
        l_active l' = l_active l /\ l_largest l' = l_largest l + 1 /\
        (l_get l' seq = None \/ l_get l' seq = Some None)
  | _ => l_recv_retire E gen ret e l seq = Some (e, l, [], LOk)
  end.
Proof.
  intros E gen ret e l seq Hlt. rewrite retire_issued by assumption.
  destruct (l_get l seq) as [[c|]|] eqn:EG; try reflexivity.
  destruct (issue E gen e (cleared l seq)) as [[[e1 l2] f]|] eqn:E1; [right|left; reflexivity].
  destruct (issue_effect _ _ _ _ _ _ _ E1) as (L & A & _). apply issue_spec in E1. destruct E1 as [c' [_ [E2 ->]]].
  destruct (cleared_count l seq c EG) as (Hl & Ha).
  exists e1, c', l2. subst l2. split; [rewrite Hl; reflexivity|]. split; [lia|split; [lia|]].
  exact (cleared_gone l seq c [Some c'] EG).
Qed.

(* the issued numbers (0, the initial ID, and those of the frames sent) are exactly 0 .. largest-1;
   retirement of any other number is rejected and changes nothing ([LErrLimit] is the model's one
   verdict for that error, whatever its kind: the kind, PROTOCOL_VIOLATION since the fix of F55, is
   c04_limits); retirement of an issued number is never an error *)
Theorem c14_retire_unissued_rejected : forall E gen ret l fs, lreach E gen ret l fs -> forall e seq,
  ((seq = 0 \/ In seq (map fseq fs)) <-> seq < l_largest l) /\
  (l_largest l <= seq -> l_recv_retire E gen ret e l seq = Some (e, l, [], LErrLimit)) /\
  (seq < l_largest l -> forall x, l_recv_retire E gen ret e l seq = Some x -> snd x = LOk).
Proof.
  intros E gen ret l fs H e seq. apply lreach_inv in H. destruct H as [[A1 [A2 _]] _]. split; [|split].
  - rewrite A1, in_nseq, A2. unfold lenN. lia.
  - apply retire_unissued.
  - intros Hlt x Hx. rewrite retire_issued in Hx by assumption.
    destruct (l_get l seq) as [[c|]|]; [destruct (issue E gen e (cleared l seq)) as [[[e1 l2] f]|]|..];
      inversion Hx; reflexivity.
Qed.

(* every connection of every system history is such a LocalCids history *)
Theorem c14_local_sys : forall rnd fuel chk post limit npre hs id0 ops s xs,
  steps chk post rnd fuel (sys_init limit npre hs id0) ops = (s, xs) ->
  forall i cn l, nth_error (s_conns s) i = Some cn -> c_local cn = Some l ->
    (exists fs, lreach renv (genq rnd fuel (N.of_nat i)) retire_cid l fs) /\
    (forall n, l_limit l = Some n -> l_active l <= n) /\
    (l_limit l = None -> l_active l <= 2).
Proof. intros. eapply reach_counts; [eapply init_reach| |]; eassumption. Qed.

Theorem c14_router : forall rnd fuel chk post limit npre hs id0 ops s xs,
  steps chk post rnd fuel (sys_init limit npre hs id0) ops = (s, xs) ->
  (forall x q, route (s_env s) x = Some q ->
     exists i cn l, q = N.of_nat i /\ nth_error (s_conns s) i = Some cn /\ c_local cn = Some l /\
                    (In (Some x) (l_cells l) \/ c_odcid cn = Some x)) /\
  (no_force ops = true ->
     (forall i cn l x, nth_error (s_conns s) i = Some cn -> c_local cn = Some l ->
        In (Some x) (l_cells l) -> route (s_env s) x = Some (N.of_nat i)) /\
     (forall i j ci cj li lj x, nth_error (s_conns s) i = Some ci -> nth_error (s_conns s) j = Some cj ->
        c_local ci = Some li -> c_local cj = Some lj ->
        In (Some x) (l_cells li) -> In (Some x) (l_cells lj) -> i = j)).
Proof.
  intros. split; [eapply VB_owner, init_VB|intros; eapply VC_routes, init_VC]; eassumption.
Qed.

Theorem c14_router_guard : forall e x q k q',
  route e x = Some q' -> q' <> q -> route (entry_drop e k q) x = Some q'.
Proof. intros e x q k q'. exact (Proofs.Router.remove_if_guard (e_tab e) k q x q'). Qed.

Theorem c14_one_cid_per_path : forall rnd fuel chk post limit npre hs id0 ops s xs,
  (hs < npre)%nat ->
  steps chk post rnd fuel (sys_init limit npre hs id0) ops = (s, xs) ->
  let r := s_remote s in
  NoDup (held (r_cells r)) /\
  forall p, (p < length (r_cells r))%nat ->
    let c := get_cell (r_cells r) p in
    (a_retired c = true -> a_alloc c = []) /\
    (a_retired c = false -> a_using c = false -> (length (a_alloc c) <= 1)%nat).
Proof.
  intros. edestruct rinv_one_cid_per_path as [Hnd Hcell]; [eapply init_remote; eassumption|].
  split; [exact Hnd|]. intros p _. exact (Hcell p).
Qed.

Theorem c14_retire_prior_to : forall rnd fuel chk post limit npre hs id0 ops s xs,
  (hs < npre)%nat ->
  steps chk post rnd fuel (sys_init limit npre hs id0) ops = (s, xs) ->
  let r := s_remote s in
  Permutation (emitted xs ++ held (r_cells r)) (nseq 0 (N.to_nat (r_cursor r))) /\
  NoDup (emitted xs) /\
  r_coff r = r_roff r /\ r_roff r <= r_cursor r /\
  (forall j p, nth_error (r_ready r) j = Some p ->
     a_retired (get_cell (r_cells r) p) = true \/
     exists id rest, a_alloc (get_cell (r_cells r) p) = (r_roff r + N.of_nat j, id) :: rest) /\
  (r_pending r = [] \/ forall x, dq_get (r_coff r) (r_cids r) (r_cursor r) <> Some (Some x)).
Proof. intros. eapply rinv_retire_prior_to, init_remote; eassumption. Qed.

(* the debug assertion of IndexDeque::drain_to is never violated by retire_prior_to *)
Theorem c14_drain_assert : forall rnd fuel chk post limit npre hs id0 ops s xs seq rpt id,
  (hs < npre)%nat ->
  steps chk post rnd fuel (sys_init limit npre hs id0) ops = (s, xs) ->
  rpt <= seq -> r_coff (s_remote s) <= seq -> r_roff (s_remote s) < rpt ->
  drain_ok (inserted (s_remote s) seq id) rpt = true.
Proof. intros. eapply rinv_drain_assert; [eapply init_remote| |]; eassumption. Qed.

(* full strength, RFC 9000 5.1.1, for the repaired code: whatever happened before, a
   NEW_CONNECTION_ID frame that is accepted leaves at most [limit] ACTIVE peer IDs
   (active = stored and not yet retired by the path it was assigned to) *)
Theorem c14_remote_limit_count : forall rnd fuel limit npre hs id0 ops s xs o s' fr,
  steps no_pre post_count rnd fuel (sys_init limit npre hs id0) ops = (s, xs) ->
  step no_pre post_count rnd fuel s o = (s', XNewCid NAccepted fr) ->
  active (s_remote s') <= limit.
Proof. intros. erewrite <- init_limit by eassumption. eapply accepted_count; eassumption. Qed.

(* ... and it never rejects a frame that would leave at most [limit] active IDs: the verdict
   CONNECTION_ID_LIMIT_ERROR is given exactly when the processed frame (ID stored, everything below
   retire_prior_to retired, idle IDs arranged) leaves more; a frame below the current retire_prior_to is
   discarded, never an error *)
Theorem c14_remote_no_false_reject : forall s seq rpt id,
  let '(s', fr, res) := recv_new_cid no_pre post_count s seq rpt id in
  (res = NErrLimit <-> (r_coff s <= seq /\ r_limit s < active (fst (processed s seq rpt id)))) /\
  (r_coff s <= seq -> (s', fr) = processed s seq rpt id) /\
  (seq < r_coff s -> s' = s /\ fr = [] /\ res = NDiscarded).
Proof.
  intros s seq rpt id. rewrite recv_count_spec.
  destruct (N.ltb_spec seq (r_coff s)) as [Hlt|Hge].
  - split; [split; [discriminate|intros [H _]; lia]|split; [intros; lia|auto]].
  - destruct (processed s seq rpt id) as [s3 fr3]. cbn [fst].
    destruct (N.ltb_spec (r_limit s) (active s3)) as [H1|H1].
    + split; [split; auto|split; [reflexivity|intros; lia]].
    + split; [split; [discriminate|intros [_ H]; lia]|split; [reflexivity|intros; lia]].
Qed.

(* a compliant peer that replaces an ID retired by one of our paths without advancing retire_prior_to
   is accepted by the repaired code and was rejected by both span tests *)
Theorem c14_remote_conservative_scenario :
  let run chk post := snd (steps chk post rnd_exec fuel_exec (sys_init 2 1 0 1000) conservative_ops) in
  run no_pre post_count =
    [XPath 1 []; XNewCid NAccepted []; XFrames [1]; XNewCid NAccepted []; XPath 2 []; XFrames [2]; XNewCid NAccepted []] /\
  nth 6 (run chk_coded no_post) XDone = XNewCid NErrLimit [] /\
  nth 3 (run chk_fixed no_post) XDone = XNewCid NErrLimit [].
Proof. vm_compute. repeat split. Qed.

(* the span repair (not applied): stored peer IDs, holes included, never exceed our limit *)
Theorem c14_remote_limit_fixed : forall rnd fuel limit npre hs id0 ops s xs,
  1 <= limit -> (hs < npre)%nat ->
  steps chk_fixed no_post rnd fuel (sys_init limit npre hs id0) ops = (s, xs) ->
  stored s <= limit /\ lenN (r_cids (s_remote s)) <= limit /\ r_limit (s_remote s) = limit.
Proof. intros. eapply p_c14_remote_limit_sound; eauto using chk_fixed_sound. Qed.

(* the code before the fix of F18 violates it ... *)
Theorem c14_remote_limit_refuted :
  exists limit npre hs id0 ops,
    1 <= limit /\ (hs < npre)%nat /\
    let '(s, xs) := steps chk_coded no_post rnd_exec fuel_exec (sys_init limit npre hs id0) ops in
    xs = [XNewCid NAccepted []; XNewCid NAccepted []] /\ stored s = 3 /\ limit = 2.
Proof. exists 2, 1%nat, 0%nat, 1000, f18_ops. vm_compute. repeat split; try lia; discriminate. Qed.

(* ... and satisfies it on every history without a frame of the class
   `sequence - retire_prior_to = limit` *)
Theorem c14_remote_limit_conditional : forall rnd fuel limit npre hs id0 ops s xs,
  1 <= limit -> (hs < npre)%nat -> no_f18 limit ops = true ->
  steps chk_coded no_post rnd fuel (sys_init limit npre hs id0) ops = (s, xs) ->
  stored s <= limit /\ lenN (r_cids (s_remote s)) <= limit.
Proof.
  intros rnd fuel limit npre hs id0 ops s xs Hl Hhs Hn H.
  rewrite steps_agree in H.
  - destruct (p_c14_remote_limit_sound _ _ _ _ _ _ _ _ _ _ _ H chk_fixed_sound Hl Hhs) as [A [B _]]. auto.
  - cbn [sys_init s_remote]. rewrite (proj2 (init_cids limit npre hs id0)). exact Hn.
Qed.

(* reordered and duplicated NEW_CONNECTION_ID, a retire-prior-to that hits assigned cells, a
   borrowed ID whose retirement is delayed until release, a path retirement, a late sparse frame that
   is accepted (4 stored, one of them retired by its path), and one frame too many; limit 4 *)
Example c14_nonvacuous_remote :
  let ops := [OPathApply; ONewCid 2 0 1002; ONewCid 1 0 1001; ONewCid 1 0 1001; OBorrow 0; OBorrow 1;
              ONewCid 4 2 1004; ONewCid 3 2 1003; ORelease 0; OBorrow 0; OPathRetire 1; ONewCid 9 0 1009;
              ONewCid 5 2 1005; ONewCid 6 2 1006] in
  let '(s, xs) := steps no_pre post_count rnd_exec fuel_exec (sys_init 4 1 0 1000) ops in
  xs = [XPath 1 []; XNewCid NAccepted []; XNewCid NAccepted []; XNewCid NAccepted [];
        XBorrow (BCid 1000); XBorrow (BCid 1001); XNewCid NAccepted [];
        XNewCid NAccepted []; XFrames [0]; XBorrow (BCid 1002); XFrames [3; 1]; XNewCid NAccepted [];
        XNewCid NAccepted []; XNewCid NErrLimit []] /\
  emitted xs = [0; 3; 1] /\ r_cursor (s_remote s) = 4 /\ stored s = 6 /\ active (s_remote s) = 5.
Proof. vm_compute. repeat split. Qed.

(* three connections on one router: limits, retirements (also of an unissued number), a second
   Initial packet for a routed origin DCID, drop; every ID ever issued is looked up *)
Example c14_nonvacuous_router :
  let ops := [OConnClient; OInitial 11; OInitial 11; OSetLimit 0 4; ORetire 0 1; ORetire 0 9;
              ORetire 1 0; OConnDrop 1; OConnClient;
              ORoute 0; ORoute 2; ORoute 4; ORoute 6; ORoute 11; ORoute 8; ORoute 10; ORoute 12] in
  let '(s, xs) := steps no_pre post_count rnd_exec fuel_exec (sys_init 2 1 0 1000) ops in
  xs = [XConn 0 [LNew 1 0 2]; XConn 1 [LNew 1 0 6]; XRouted (Some 1); XLocal LOk [LNew 2 0 8; LNew 3 0 10];
        XLocal LOk [LNew 4 0 12]; XLocal LErrLimit []; XLocal LOk [LNew 2 1 14]; XDone; XConn 2 [LNew 1 0 18];
        XRouted (Some 0); XRouted None; XRouted None; XRouted None; XRouted None;
        XRouted (Some 0); XRouted (Some 0); XRouted (Some 0)] /\
  no_force ops = true.
Proof. vm_compute. repeat split. Qed.

(* an unconditionally inserted origin DCID takes over a live ID, and the guarded drop of the OLDER
   entry leaves the newer route alone *)
Example c14_nonvacuous_guard :
  let ops := [OInitial 11; OForce 11; ORoute 11; OConnDrop 0; ORoute 11; OConnDrop 1; ORoute 11] in
  let '(s, xs) := steps no_pre post_count rnd_exec fuel_exec (sys_init 2 1 0 1000) ops in
  xs = [XConn 0 [LNew 1 0 2]; XConn 1 [LNew 1 0 6]; XRouted (Some 1); XDone; XRouted (Some 1); XDone; XRouted None].
Proof. vm_compute. repeat split. Qed.

Print Assumptions c14_local_count.
Print Assumptions c14_local_count_unset.
Print Assumptions c14_local_consecutive.
Print Assumptions c14_local_replace.
Print Assumptions c14_retire_unissued_rejected.
Print Assumptions c14_local_sys.
Print Assumptions c14_router.
Print Assumptions c14_router_guard.
Print Assumptions c14_one_cid_per_path.
Print Assumptions c14_retire_prior_to.
Print Assumptions c14_drain_assert.
Print Assumptions c14_remote_limit_count.
Print Assumptions c14_remote_no_false_reject.
Print Assumptions c14_remote_conservative_scenario.
Print Assumptions c14_remote_limit_fixed.
Print Assumptions c14_remote_limit_refuted.
Print Assumptions c14_remote_limit_conditional.
Print Assumptions c14_nonvacuous_remote.
Print Assumptions c14_nonvacuous_router.
Print Assumptions c14_nonvacuous_guard.
