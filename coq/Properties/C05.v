(* C05 — every encodable value decodes back to itself, in the size it declared.
   Only the property theorems live here; the lemmas they rest on are in Proofs/Wire.v, Frames.v and Packets.v. *)
From Coq Require Import List ZArith Lia.
From GQ Require Import Lib.Wire Model.Varint Model.Frames Model.Packets Model.Params Model.Admission Proofs.Wire Proofs.Frames Proofs.Packets.
Import ListNotations.
Local Open Scope Z_scope.

(* variable-length integers round-trip at every width and take the size they announce *)
Theorem c05_varint_rt : forall x rest, varint_ok x -> be_varint (put_varint x ++ rest) = Ok x rest.
Proof. exact be_varint_put_varint. Qed.

Theorem c05_varint_size : forall x, zlen (put_varint x) = varint_size x.
Proof. exact put_varint_length. Qed.

(* the frame-type table regenerated from the Rust source is a bijection on the 40 concrete types *)
Theorem c05_frame_type_rt : forall t, ft_of_code (code_of_ft t) = Some t.
Proof. exact ft_roundtrip. Qed.

Theorem c05_frame_type_inj : forall v t, ft_of_code v = Some t -> code_of_ft t = v.
Proof. exact ft_decode_encode. Qed.

(* every well-formed frame of every kind, in every packet type that admits it, decodes back to
   itself and consumes exactly the bytes written (frames without a length field come last) *)
Theorem c05_frame_rt : forall p f rest,
  wf_frame f -> belongs (frame_type f) p = true -> tail_ok f rest ->
  be_frame p (put_frame f ++ rest) = FOk (zlen (put_frame f)) f (frame_type f).
Proof.
  intros p f rest Hwf Hb Htl. pose proof (body_rt f _ rest Hwf Htl eq_refl) as Eb. revert Eb.
  unfold be_frame, put_frame, put_ft. intro Eb.
  rewrite <- app_assoc, be_varint_put_varint by apply ft_code_ok.
  rewrite ft_roundtrip, Hb. cbn [negb]. rewrite Eb. f_equal. rewrite !zlen_app. lia.
Qed.

(* the announced size is the number of bytes written (plus the body of data-bearing frames) … *)
Theorem c05_frame_size : forall f, wf_frame f -> zlen (put_frame f) = wire_size f.
Proof. exact p_c05_frame_size. Qed.

(* … and never exceeds the announced maximum, so a frame admitted by size always fits *)
Theorem c05_frame_max : forall f, wf_frame f -> encoding_size f <= max_encoding_size f.
Proof. exact p_c05_frame_max. Qed.

(* admission by size (Package::dump): an admitted frame occupies no more than the remaining space *)
Theorem c05_admission : forall f remaining, wf_frame f -> admitted remaining f = true ->
  match f with Crypto _ _ | Stream _ _ _ _ _ | Datagram _ _ => True | _ => zlen (put_frame f) <= remaining end.
Proof.
  intros f remaining Hwf H. pose proof (p_c05_admission _ _ Hwf H) as Ha. rewrite (p_c05_frame_size _ Hwf). unfold wire_size.
  destruct f; try exact I; rewrite Z.add_0_r; exact Ha.
Qed.

(* STREAM frames are admitted through estimate_max_capacity + encoding_strategy: padding plus frame fit the
   space, the assert and dump's own test cannot fail, a frame without a length field fills the packet *)
Theorem c05_stream_admission : forall capacity sid off len cap_data,
  varint_ok sid -> varint_ok off -> 0 <= len ->
  stream_estimate capacity sid off = Some cap_data -> len <= cap_data ->
  exists explicit pad, encoding_strategy capacity sid off len = Some (explicit, pad) /\
    0 <= pad /\
    stream_written sid off len explicit pad <= capacity /\
    (explicit = false -> stream_written sid off len explicit pad = capacity) /\
    (STREAM_FRAME_MAX_ENCODING_SIZE <= capacity - pad \/
     stream_least sid off + (if explicit then varint_size len else 0) <= capacity - pad).
Proof. intros capacity sid off len cap_data _ _. apply p_c05_stream_admission. Qed.

(* CRYPTO frames: the estimate is the largest data length whose frame fits *)
Theorem c05_crypto_estimate : forall capacity off n, 0 <= capacity ->
  crypto_estimate capacity off = Some (Some n) ->
  0 < n /\ 1 + varint_size off + varint_size n + n <= capacity /\
  (capacity < 1 + varint_size off + varint_size (n + 1) + (n + 1)).
Proof. intros capacity off n _. apply p_c05_crypto_estimate. Qed.

Theorem c05_crypto_estimate_total : forall capacity off, 0 <= capacity <= 2 ^ 30 -> crypto_estimate capacity off <> None.
Proof. intros capacity off [_ H]. exact (p_c05_crypto_estimate_total capacity off H). Qed.

(* packet type byte(s) and headers of all six kinds (connection-id lengths 0..20, any token) *)
Theorem c05_packet_type_rt : forall t rest, be_packet_type (put_packet_type t ++ rest) = TOk t rest.
Proof. exact p_c05_packet_type_rt. Qed.

Theorem c05_header_rt : forall h n rest, wf_header h -> htail_ok h rest -> dcid_len_of h n ->
  be_header (header_type h) n (skipn (length (put_packet_type (header_type h))) (put_header h) ++ rest) = Ok h rest.
Proof. intros h n rest Hwf Ht Hn. apply p_c05_header_rt; auto using header_body. Qed.

Theorem c05_header_size : forall h, wf_header h ->
  match h with HVN _ _ _ | HRetry _ _ _ _ => True | _ => zlen (put_header h) = header_size h end.
Proof. exact p_c05_header_size. Qed.

(* transport parameters: any list of entries legal for the sender's role (ids from the regenerated
   table, values of the prescribed type, within bounds) parses back to the map those entries define *)
Theorem c05_params_rt : forall r l, Forall (wf_entry r) l ->
  parse_loop (S (length (put_params l))) r [] (put_params l) = PaOk (set_list l).
Proof.
  intros r l H. unfold set_list. apply parse_loop_rt; [assumption|]. pose proof (put_params_len l). lia.
Qed.

Theorem c05_params_lookup : forall l id, pm_get (set_list l) id = last_value l id None.
Proof.
  intros l id. unfold set_list.
  assert (G : forall m, pm_get (fold_left (fun m e => pm_set m (fst e) (snd e)) l m) id = last_value l id (pm_get m id)).
  { induction l as [|[k v] t IH]; intro m; cbn [fold_left last_value fst snd]; [reflexivity|].
    rewrite IH, pm_get_set. reflexivity. }
  apply G.
Qed.

(* non-vacuity: concrete well-formed frames of the three historically defective kinds *)
Example c05_nonvacuous :
  wf_frame (NewToken (repeat 7 70)) /\ wire_size (NewToken (repeat 7 70)) = 73 /\
  wf_frame (Crypto (2 ^ 61) [1; 2; 3]) /\
  be_frame POneRtt (put_frame (Crypto (2 ^ 61) [1; 2; 3]) ++ [9]) = FOk 13 (Crypto (2 ^ 61) [1; 2; 3]) TCrypto /\
  encoding_size (CloseQuic 10 4030102 [104; 105]) = 9 /\ zlen (put_frame (CloseQuic 10 4030102 [104; 105])) = 9.
Proof. vm_compute. repeat split; congruence. Qed.

Print Assumptions c05_varint_rt.
Print Assumptions c05_varint_size.
Print Assumptions c05_frame_type_rt.
Print Assumptions c05_frame_type_inj.
Print Assumptions c05_frame_rt.
Print Assumptions c05_frame_size.
Print Assumptions c05_frame_max.
Print Assumptions c05_admission.
Print Assumptions c05_stream_admission.
Print Assumptions c05_crypto_estimate.
Print Assumptions c05_crypto_estimate_total.
Print Assumptions c05_packet_type_rt.
Print Assumptions c05_header_rt.
Print Assumptions c05_header_size.
Print Assumptions c05_params_rt.
Print Assumptions c05_params_lookup.
Print Assumptions c05_nonvacuous.
