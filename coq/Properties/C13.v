(* C13 — loss detection and congestion control follow RFC 9002.
   Only the property theorems live here: each follows in a few lines from the lemmas of
   Proofs/{NewReno,LossDetect,Pto,CcSteps,CcTrace,CcRun}.v and its assumptions are printed for the audit.

   [reach c] : c is the state of the controller model after ANY list of operations (sends in three
   spaces with any sizes/flags, ACK frames with any ranges/ECN counts, clock advances, ticks,
   handshake flags, discards, quota requests) on either role, any positive MTU and max_ack_delay,
   with ANY values of the RTT-filter inputs (loss_delay, smoothed_rtt, rttvar, pacer refill) at
   every step.  The floating-point RTT filter is an input by design (level: partial).

   Two clauses of the property are refuted on the faithful model (F15, F25: open findings); each
   has a [_refuted] witness (the same histories replay on the real controller, corpus/C13/cc) and
   a conditional theorem.  F16 and F17 were repaired (`fix:` commits); their clauses are proved at
   full strength on the model of the fixed code and the former witnesses are regression cases. *)
From Coq Require Import List ZArith Bool Lia.
From GQ Require Import Model.NewReno Model.LossDetect Model.Pto
  Proofs.NewReno Proofs.LossDetect Proofs.Pto Proofs.CcSteps Proofs.CcTrace Proofs.CcRun.
Import ListNotations.
Local Open Scope Z_scope.

(* bytes_in_flight = sum of the sizes of the counted Inflight packets over the three spaces, after
   every history; no saturating_sub saturated; no checked subtraction/division panicked *)
Theorem c13_bif_exact : forall c, reach c ->
  bif (c_reno c) = total_flight c /\ r_sat (c_reno c) = false /\ r_panic (c_reno c) = false.
Proof. intros c H. destruct (reach_InvA c H) as ((A & B & C & D & E) & F & G & _). auto. Qed.

(* the window never falls below two datagrams (max_datagram_size constant = the path MTU) *)
Theorem c13_cwnd_min : forall c, reach c -> mds (c_reno c) = c_mtu c /\ 2 * c_mtu c <= cwnd (c_reno c).
Proof. intros c H. destruct (reach_InvA c H) as ((A & B & C & D & E) & _). auto. Qed.

(* the window grows only in an accepted ACK that newly acknowledges a counted packet sent after
   the start of the current recovery period *)
Theorem c13_grow_only_on_ack_outside_recovery : forall c ri o, reach c -> op_ok o ->
  cwnd (c_reno c) < cwnd (c_reno (fst (cc_step c ri o))) ->
  exists e cev rs p, o = OpAck e cev rs /\ ack_ok rs = true /\
    In p (s_sent (c_sp c e)) /\ in_ranges (p_pn p) rs = true /\ is_acked p = false /\
    p_cc p = true /\ in_recovery (c_reno c) (p_time p) = false.
Proof.
  intros c ri o Hr Ho. pose proof (reach_InvA c Hr) as H.
  apply (window_cases (fun w _ => cwnd (c_reno c) < w -> (_ : Prop))); cbn beta.
  - lia.
  - intros e cev rs s r lost pers -> Ek Ep Hlt.
    destruct (proj2 (ack_pass_ok Ep (InvA_space c e Ho H)) Hlt) as (p & P). exists e, cev, rs, p. auto.
  - (* a detection pass never raises the window *)
    intros e s r lost pers He Ed. pose proof (proj2 (detect_lost_ok Ed (InvA_space c e He H))). lia.
Qed.

(* once per recovery period, at the congestion controller: an event for a packet sent no later
   than the recovery start changes nothing; a firing event takes one datagram off (floor two
   datagrams) and opens a recovery period, after which events for earlier packets are ignored;
   a loss report without the `persistent` flag reduces at most once, and not at all when every
   lost packet was sent before the recovery start *)
Theorem c13_once_per_rtt : forall m r,
  reno_ok m r ->
  (forall t now, in_recovery r t = true -> on_congestion_event r t now = r) /\
  (forall t now t' now', in_recovery r t = false -> t' <= now ->
     on_congestion_event (on_congestion_event r t now) t' now' = on_congestion_event r t now) /\
  (forall lost now,
     let r' := on_packets_lost r lost false now in
     Z.max (cwnd r - m) (2 * m) <= cwnd r' /\
     ((forall s, rstart r = Some s -> forall p, In p lost -> p_time p <= s) -> rstart r <> None -> cwnd r' = cwnd r) /\
     (cwnd r' < cwnd r -> rstart r' = Some now)).
Proof.
  intros m r H. split; [intros; now apply congestion_event_in_recovery|].
  split; [intros; now apply congestion_event_once|]. intros lost now. exact (on_packets_lost_single m r lost now H).
Qed.

(* per operation, over every history: in every reachable state an operation whose detection pass
   does not raise the `persistent` flag (outside the class of F25) takes at most ONE datagram off the
   window — also when the same ACK carries a new ECN-CE mark and triggers losses.  The space-level
   statements are ack_pass_single (which needs InvPast) and detect_lost_single. *)
Theorem c13_once_per_rtt_step : forall c ri o, reach c -> op_ok o ->
  o_pers (snd (cc_step c ri o)) = false ->
  Z.max (cwnd (c_reno c) - c_mtu c) (2 * c_mtu c) <= cwnd (c_reno (fst (cc_step c ri o))).
Proof.
  intros c ri o Hr Ho. pose proof (reach_InvA c Hr) as H.
  apply (window_cases (fun w p => p = false -> Z.max (cwnd (c_reno c) - c_mtu c) (2 * c_mtu c) <= w)); cbn beta.
  - intros _. destruct H as ((_ & B & C & _) & _). lia.
  - intros e cev rs s r lost pers -> _ Ep ->. exact (ack_pass_single Ep (InvA_space c e Ho H) (reach_InvPast c Hr e)).
  - intros e s r lost pers _ Ed ->. exact (proj1 (detect_lost_single Ed (proj1 H))).
Qed.

(* every Inflight packet was sent no later than the current time (the invariant used above) *)
Theorem c13_sent_in_the_past : forall c, reach c ->
  forall e p, In p (s_sent (c_sp c e)) -> is_inflight p = true -> p_time p <= c_now c.
Proof. exact reach_InvPast. Qed.

(* the stream entry point: every state visited by run_cc on a wire-form operation list (clock
   advances not negative, positive MTU) is reachable, so every theorem above applies to the state
   behind every observation line the extracted model prints *)
Theorem c13_run_reach : forall cfg l,
  (match cfg with [_; mtu; mad_us] => 0 < mtu /\ 0 <= mad_us | _ => True end) ->
  Forall wire_ok l ->
  let c0 := match cfg with
            | [role; mtu; mad_us] => cc_new (negb (role =? 0)) mtu (mad_us * 1000)
            | _ => cc_new false 1200 25000000
            end in
  run_cc cfg l = cc_run c0 l /\ reach c0 /\ Forall reach (cc_states c0 l).
Proof.
  intros cfg l Hc Hf. cbn zeta.
  assert (R : forall s m d, 0 < m -> 0 <= d ->
            reach (cc_new s m d) /\ Forall reach (cc_states (cc_new s m d) l)).
  { intros s m d Hm Hd. pose proof (reach0 s m d Hm Hd) as R. split; [exact R|now apply cc_states_reach]. }
  destruct cfg as [|r [|m [|d [|x y]]]]; (split; [reflexivity|]); apply R; lia.
Qed.

(* F25 — REFUTED at full strength: with the `persistent` flag (3 index-consecutive losses in one
   pass) the same loss event reduces twice (12000 -> 10800 -> 5400) and closes the recovery period *)
Theorem c13_once_per_rtt_refuted :
  let '(c, outs) := run_ops (cc_new true 1200 0) f25_history in
  exists out, nth_error outs 9 = Some out /\ o_pers out = true /\ o_lost out = [(2, 0); (2, 1); (2, 2)] /\
              cwnd (c_reno c) = 5400 /\ 5400 < Z.max (12000 - 1200) (2 * 1200) /\ rstart (c_reno c) = None.
Proof. vm_compute. eexists. repeat split. Qed.

(* an acknowledged packet is never declared lost: the ACK walk leaves no packet of the ranges
   Inflight and never makes a packet Inflight; a detection pass reports only Inflight packets and
   never makes a packet Inflight *)
Theorem c13_acked_never_lost :
  (forall rs ps r r1 ps' e l, ack_walk r ps rs = (r1, ps', e, l) ->
     (forall pn, in_ranges pn rs = true -> noinfl pn ps') /\ (forall pn, noinfl pn ps -> noinfl pn ps')) /\
  (forall s r ld now s' r' lost pers pn, detect_lost s r ld now = (s', r', lost, pers) ->
     (In pn lost -> ~ noinfl pn (s_sent s)) /\ (noinfl pn (s_sent s) -> noinfl pn (s_sent s'))) /\
  (forall ps p, In p (pop_front ps) -> In p ps).
Proof.
  split; [|split].
  - intros rs ps r r1 ps' e l H. destruct (ack_walk_states H) as (A & B).
    split; [exact B|intros pn; now apply infl_incl_noinfl].
  - intros s r ld now s' r' lost pers pn H. destruct (detect_lost_states H) as (A & B).
    split; [apply B|now apply infl_incl_noinfl].
  - exact pop_front_incl.
Qed.

(* trace form: from ANY controller state (so from every reachable one), once an accepted ACK frame
   of space e covers a number pn already sent in e, neither that operation nor any operation of
   any continuation (any ops, any RTT inputs) reports (e, pn) lost *)
Theorem c13_acked_never_lost_trace : forall c ri e cev rs pn l,
  ack_ok rs = true -> in_ranges pn rs = true -> pn <= c_lastpn c e ->
  Forall (fun out => ~ In (e, pn) (o_lost out)) (run_from c ((ri, OpAck e cev rs) :: l)).
Proof.
  intros c ri e cev rs pn l Hk Hr Hl. destruct (ack_establishes_NI c ri e cev rs pn Hk Hr Hl) as (A & B).
  cbn [run_from]. constructor; [exact B|]. now apply NI_run.
Qed.

(* the loss rule as coded: a reported packet was Inflight and is older than loss_delay +
   max_ack_delay of its space, or sits at least 3 deque positions below the position of the
   largest acknowledged number *)
Theorem c13_loss_rule : forall s r ld now s' r' lost pers pn,
  detect_lost s r ld now = (s', r', lost, pers) -> In pn lost ->
  exists i p, nth_error (s_sent s) (Z.to_nat i) = Some p /\ 0 <= i /\ p_pn p = pn /\ is_inflight p = true /\
    (p_time p < now - ld - s_mad s \/
     i + PACKET_THRESHOLD <= bsearch_idx (s_sent s) (match s_la s with Some n => n | None => 0 end)).
Proof. intros s r ld now s' r' lost pers pn H. now apply (detect_lost_rule H). Qed.

(* F15 — REFUTED at full strength ("only when a later packet has been acknowledged"): the age
   disjunct does not look at largest_acked; one packet, no ACK ever, declared lost by a tick *)
Theorem c13_loss_rule_refuted :
  let '(c, outs) := run_ops (cc_new true 1200 25000000) f15_history in
  exists out, nth_error outs 3 = Some out /\ o_lost out = [(2, 0)] /\
              s_la (c_sp c 2) = None /\ cwnd (c_reno c) = 10800.
Proof. vm_compute. eexists. repeat split. Qed.

(* successive PTO intervals double, for every value of the RTT inputs (F17 fixed by 53c7484:
   base_pto = (smoothed_rtt + max(4*rttvar, 1ms)) * 2^pto_count), and are positive and strictly growing *)
Theorem c13_pto_doubles : forall ri k, 0 <= k -> base_pto ri (k + 1) = 2 * base_pto ri k.
Proof. intros ri k. unfold base_pto. intros Hk. change (k + 1) with (Z.succ k). rewrite Z.pow_succ_r by lia. lia. Qed.

Theorem c13_pto_backoff : forall ri k, 0 <= k -> 0 <= i_srtt ri ->
  0 < base_pto ri k /\ base_pto ri k < base_pto ri (k + 1).
Proof.
  intros ri k Hk Hs. rewrite c13_pto_doubles by lia. unfold base_pto, GRANULARITY.
  assert (0 < 2 ^ k) by (apply Z.pow_pos_nonneg; lia). split; nia.
Qed.

(* an expired timer either reports every over-age Inflight packet of the earliest-loss-time space
   (and only Inflight packets of that space), or — no loss time armed — increments pto_count and,
   when no ack-eliciting packet is in flight, requests exactly one probe *)
Theorem c13_probe_or_resolve : forall c ri,
  let '(c', lost, pers) := on_loss_detection_timeout c ri in
  match get_loss_time_and_epoch c with
  | Some (_, e) =>
      In e epochs /\ c_pto_count c' = c_pto_count c /\
      (forall p, In p (s_sent (c_sp c e)) -> is_inflight p = true ->
                 p_time p + i_ld ri + s_mad (c_sp c e) < c_now c -> In (e, p_pn p) lost) /\
      (forall x pn, In (x, pn) lost -> x = e /\ ~ noinfl pn (s_sent (c_sp c e)))
  | None =>
      lost = [] /\ c_pto_count c' = c_pto_count c + 1 /\
      (all_no_elic c = true -> need_total c' = need_total c + 1) /\
      (forall e, s_sent (c_sp c' e) = s_sent (c_sp c e))
  end.
Proof.
  intros c ri. unfold on_loss_detection_timeout.
  destruct (get_loss_time_and_epoch c) as [[t e]|] eqn:Eg.
  - destruct (detect_lost (c_sp c e) (c_reno c) (i_ld ri) (c_now c)) as [[[s r] lost] pers] eqn:Ed.
    sldt. ccbn. split; [exact (get_loss_epoch c t e Eg)|]. split; [reflexivity|]. split.
    + intros p Hp Hi Ht. apply in_map. now apply (detect_lost_rule Ed).
    + intros x pn Hin. destruct (in_report Hin) as (-> & Hl).
      split; [reflexivity|]. now apply (proj2 (detect_lost_states Ed)).
  - sldt.
    destruct (all_no_elic c); [|destruct (get_pto_time_and_epoch c ri) as (r, q); destruct r as [[t e]|]];
      ccbn; (split; [reflexivity|split; [reflexivity|split; [|reflexivity]]]); try discriminate.
    intros _. unfold need_total. ccbn. unfold fset. destruct (c_hs_key c); cbn [Z.eqb Pos.eqb]; lia.
Qed.

(* the connection is abandoned (TooManyPtos) exactly when an expiry leaves pto_count above 6 *)
Theorem c13_too_many_ptos : forall c ri,
  let '(c', out) := cc_step c ri OpTick in
  (o_result out = 1 <-> (exists t, c_timer c = Some t /\ t <= c_now c) /\ 6 < c_pto_count c') /\
  (o_result out = 1 -> c_dead c' = true).
Proof. exact p_c13_too_many_ptos. Qed.

(* the sender does not add in-flight bytes beyond the window (F16 fixed: send_quota =
   min(pacer tokens, cwnd - bytes_in_flight)): after any history, if send_quota grants a positive
   quota while no PTO probe is pending, every burst whose in-flight bytes fit in the quota leaves
   bytes_in_flight <= cwnd *)
Theorem c13_send_within_window : forall c ri ri' l, reach c -> probe_pending c = false ->
  0 < o_result (snd (cc_step c ri OpQuota)) ->
  Forall (fun x => In (fst (fst (fst (fst x)))) epochs) l ->
  burst_bytes l <= o_result (snd (cc_step c ri OpQuota)) ->
  let c' := burst (fst (cc_step c ri OpQuota)) ri' l in
  bif (c_reno c') <= cwnd (c_reno c').
Proof.
  intros c ri ri' l Hr Hp Hq Hf Hb. destruct (burst_room c ri ri' l Hr Hq Hf Hb) as (A & B & C).
  cbn zeta in *. rewrite C. unfold window_room in A, B. rewrite Hp in A, B. lia.
Qed.

(* except probes (RFC 9002 7.5): with a probe pending the overshoot is at most one datagram *)
Theorem c13_probe_overshoot : forall c ri ri' l, reach c ->
  0 < o_result (snd (cc_step c ri OpQuota)) ->
  Forall (fun x => In (fst (fst (fst (fst x)))) epochs) l ->
  burst_bytes l <= o_result (snd (cc_step c ri OpQuota)) ->
  let c' := burst (fst (cc_step c ri OpQuota)) ri' l in
  bif (c_reno c') <= Z.max (cwnd (c_reno c')) (bif (c_reno c) + c_mtu c).
Proof.
  intros c ri ri' l Hr Hq Hf Hb. destruct (burst_room c ri ri' l Hr Hq Hf Hb) as (A & B & C).
  cbn zeta in *. rewrite C. unfold window_room in A, B. destruct (probe_pending c); lia.
Qed.

Theorem c13_quota_bound : forall c ri,
  snd (cc_send_quota c ri) <= window_room c /\
  snd (cc_send_quota c ri) <= pc_tokens (c_pacer (fst (cc_send_quota c ri))) /\
  c_reno (fst (cc_send_quota c ri)) = c_reno c.
Proof. exact quota_bound. Qed.

(* the former F16 witness as a regression: the second quota request is refused *)
Example c13_f16_regression :
  let '(c, outs) := run_ops (cc_new true 1200 25000000) f16_history in
  exists o1 o13, nth_error outs 1 = Some o1 /\ o_result o1 = 12000 /\
              nth_error outs 13 = Some o13 /\ o_result o13 = -1 /\
              bif (c_reno c) = 12000 /\ cwnd (c_reno c) = 12000 /\ pc_tokens (c_pacer c) = 12000.
Proof. vm_compute. do 2 eexists. repeat split. Qed.

(* non-vacuity: a history over three spaces with an ACK of two ranges, a packet-threshold loss, a
   discard and a tick is reachable and satisfies the invariants *)
Example c13_nonvacuous :
  let '(c, outs) := run_ops (cc_new true 1200 25000000) nonvac_history in
  bif (c_reno c) = total_flight c /\ 2 * 1200 <= cwnd (c_reno c) /\
  (exists out, nth_error outs 11 = Some out /\ o_lost out = [(2, 0); (2, 1)]) /\ r_sat (c_reno c) = false.
Proof. vm_compute. repeat split; try congruence. eexists. split; reflexivity. Qed.

Print Assumptions c13_bif_exact.
Print Assumptions c13_cwnd_min.
Print Assumptions c13_grow_only_on_ack_outside_recovery.
Print Assumptions c13_once_per_rtt.
Print Assumptions c13_once_per_rtt_step.
Print Assumptions c13_sent_in_the_past.
Print Assumptions c13_run_reach.
Print Assumptions c13_once_per_rtt_refuted.
Print Assumptions c13_acked_never_lost.
Print Assumptions c13_acked_never_lost_trace.
Print Assumptions c13_loss_rule.
Print Assumptions c13_loss_rule_refuted.
Print Assumptions c13_pto_doubles.
Print Assumptions c13_pto_backoff.
Print Assumptions c13_probe_or_resolve.
Print Assumptions c13_too_many_ptos.
Print Assumptions c13_send_within_window.
Print Assumptions c13_probe_overshoot.
Print Assumptions c13_quota_bound.
Print Assumptions c13_f16_regression.
Print Assumptions c13_nonvacuous.
