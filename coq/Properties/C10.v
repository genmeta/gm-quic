(* C10 — acknowledgement bookkeeping is truthful in both directions.
   Only the property theorems live here: each follows in a few lines from the
   lemmas of Proofs/RcvdJournal.v or Proofs/SentJournal.v (the witnesses by evaluation where they stand),
   and its assumptions are printed for the audit.

   Received side: a history is a list of [rev_] events (on_rcvd_pn, gen_ack_frame_util,
   on_rcvd_ack — each holds the write lock for its whole duration) from an empty journal with any
   max_ack_delay; [rreach h j reg] : after history h the journal is j and reg is the log of the
   numbers passed to on_rcvd_pn.  Sent side: a history is a list of [sev] events (whole
   NewPacketGuard lives, and the calls of SentRotateGuards incl. the resize of their Drop);
   [sreach h j all] : after h the journal is j and all!k is the list of frames recorded by the
   guard that consumed packet number k; [ev_ok] is the guard discipline of tx.rs. *)
From Coq Require Import List ZArith Bool Lia.
From GQ Require Import Model.RcvdJournal Model.SentJournal Proofs.RcvdJournal Proofs.SentJournal.
Import ListNotations.
Local Open Scope Z_scope.

(* every number enumerated by a generated frame was registered as received (if `largest` is
   already rotated out of the window the frame lists `largest` alone, which was registered) *)
Theorem c10_ack_sound : forall h j reg now pn largest rt cap j' f,
  rreach h j reg -> In largest reg ->
  gen_ack j now pn largest rt cap = GaOk j' f ->
  exists rs, ack_iter f = Some rs /\ forall x, in_ranges x rs = true -> In x reg.
Proof.
  intros h j reg now pn largest rt cap j' f R Hin H.
  edestruct gen_ack_frame as (rs & Hit & Hs & _); eauto using rreach_inv.
Qed.

(* the hypothesis `In largest reg` cannot be dropped *)
Theorem c10_ack_sound_needs_registered_largest :
  let h := [RvRcvd 0 1 true 10; RvRcvd 0 4 true 10; RvRcvd 0 6 true 10] in
  match rv_run (rj_new None) [] h with
  | Some (j, reg) =>
      match gen_ack j 0 1 5 0 100 with
      | GaOk _ f => ack_iter f = Some [(5, 5); (3, 3); (0, 0)] /\ ~ In 3 reg /\ ~ In 5 reg /\ ~ In 0 reg
      | _ => False
      end
  | None => False
  end.
Proof. vm_compute. split; [reflexivity|]. repeat split; intros H; intuition discriminate. Qed.

(* no u32 underflow in `gap - 1`, `ack - 1`, `first_range` *)
Theorem c10_ack_fields : forall h j reg now pn largest rt cap j' f,
  rreach h j reg -> In largest reg ->
  gen_ack j now pn largest rt cap = GaOk j' f ->
  0 <= a_first f /\ forall g a, In (g, a) (a_ranges f) -> 0 <= g /\ 0 <= a.
Proof.
  intros h j reg now pn largest rt cap j' f R Hin H.
  edestruct gen_ack_frame as (rs & _ & _ & Hf & _); eauto using rreach_inv.
Qed.

(* holds in every state, for every argument: size within capacity, largest as requested *)
Theorem c10_ack_fits : forall j now pn largest rt cap j' f,
  gen_ack j now pn largest rt cap = GaOk j' f -> ack_encoding_size f <= cap /\ a_largest f = largest.
Proof.
  intros j now pn largest rt cap j' f H. pose proof (gen_ack_spec j now pn largest rt cap) as S. rewrite H in S.
  destruct S as (_ & Hh & Ef). split; [apply (cut_frame_spec _ _ _ Hh Ef)|]. rewrite Ef, full_frame_eq. reflexivity.
Qed.

Theorem c10_ack_largest : forall j now pn largest rt cap j' f,
  gen_ack j now pn largest rt cap = GaOk j' f -> a_largest f = largest.
Proof. intros. eapply c10_ack_fits; eauto. Qed.

(* capacity at least the size of the frame that lists everything => every tracked received
   number <= largest is listed (full strength since the fix of F30, `capacity >= size`) *)
Theorem c10_ack_complete : forall h j reg now pn largest rt cap j' f,
  rreach h j reg -> In largest reg ->
  gen_ack j now pn largest rt cap = GaOk j' f -> full_size j now largest rt <= cap ->
  exists rs, ack_iter f = Some rs /\
    forall x, x <= largest -> has j x = true -> in_ranges x rs = true.
Proof.
  intros h j reg now pn largest rt cap j' f R Hin H Hcap.
  edestruct gen_ack_frame as (rs & Hit & _ & _ & Hc); eauto using rreach_inv.
Qed.

(* regression witness of F30: capacity == full size (7 bytes) returns the complete frame; with 6
   bytes the last range is cut and the frame uses 5 *)
Theorem c10_ack_exact_fit :
  let h := [RvRcvd 0 0 true 10; RvRcvd 0 2 true 10] in
  match rv_run (rj_new None) [] h with
  | Some (j, reg) =>
      full_size j 0 2 0 = 7 /\
      match gen_ack j 0 1 2 0 7, gen_ack j 0 1 2 0 6 with
      | GaOk _ f, GaOk _ f6 =>
          ack_iter f = Some [(2, 2); (0, 0)] /\ ack_encoding_size f = 7 /\
          ack_iter f6 = Some [(2, 2)] /\ ack_encoding_size f6 = 5
      | _, _ => False
      end
  | None => False
  end.
Proof. vm_compute. repeat split; auto. Qed.

(* generating a frame — with any capacity, also when it is refused with CONGESTION — marks the
   visited records AckSent but never removes a number from the tracked set: what was cut for
   capacity is listed by the next frame that has room (c10_ack_complete applies to j') *)
Theorem c10_genack_keeps_tracked : forall j now pn largest rt cap,
  match gen_ack j now pn largest rt cap with
  | GaOk j' _ | GaErr j' => r_off j' = r_off j /\ forall q, has j' q = has j q
  | GaPanic => True
  end.
Proof.
  intros j now pn largest rt cap. pose proof (gen_ack_spec j now pn largest rt cap) as S.
  destruct (gen_ack j now pn largest rt cap) as [j' f|j'|]; try exact I;
    (split; [apply S | apply has_ext, S]).
Qed.

Theorem c10_accept_once : forall h j reg pn p,
  rreach h j reg -> In pn reg -> decode_pn j p <> DpnOk pn.
Proof. intros h j reg pn p R Hin. exact (decode_pn_fresh _ _ _ (ri_reg _ _ (rreach_inv _ _ _ R) pn Hin)). Qed.

(* "for ever": the registration survives every continuation of the history *)
Theorem c10_accept_once_forever : forall h1 h2 j reg now pn el pto p,
  rreach (h1 ++ RvRcvd now pn el pto :: h2) j reg -> decode_pn j p <> DpnOk pn.
Proof.
  intros h1 h2 j reg now pn el pto p R.
  eapply c10_accept_once; [exact R|].
  destruct R as [_ [mad H]]. rewrite rv_run_app in H.
  destruct (rv_run (rj_new mad) [] h1) as [[j1 reg1]|]; [|discriminate]. cbn [rv_run rv_step] in H.
  destruct (on_rcvd_pn j1 now pn el pto) as [j2|]; [|discriminate].
  eapply rv_run_reg_mono; [|exact H]. left. reflexivity.
Qed.

Theorem c10_sent_inv : forall h j all, sreach h j all ->
  SInv j all /\ length (s_queue j) = sumn (s_recs j).
Proof.
  intros h j all [Ok H]. pose proof (ev_run_inv _ _ _ _ _ SInv_init Ok H) as I.
  split; [exact I | apply (SInv_queue_length _ _ I)].
Qed.

Theorem c10_sent_exact_step : forall j all pn, SInv j all ->
  exists j', on_packet_acked j pn = Some (j', if in_flight j pn then carried all pn else [])
    /\ in_flight j' pn = false
    /\ (forall q, q <> pn -> s_get j' q = s_get j q) /\ s_next j' = s_next j.
Proof.
  intros j all pn I. destruct (feed_spec be_acked j all pn be_acked_feeder I) as (j' & Hf).
  destruct (feed_get _ _ _ _ _ Hf) as [Hn Hg]. exists j'. repeat split; [exact Hf| | |exact Hn].
  - rewrite in_flight_flying, Hg, Z.eqb_refl. destruct (s_get j pn) as [[]|]; reflexivity.
  - intros q Hq. rewrite Hg. apply Z.eqb_neq in Hq. rewrite Hq. reflexivity.
Qed.

(* in every reachable state (indeed in every state satisfying the invariant, so also between the
   calls of one guard) on_packet_acked cannot panic and yields exactly the frames carried by pn
   if pn is in flight (Flighting / Retransmitted), nothing otherwise (skipped = trivial packets,
   acknowledged, dropped, not sent); afterwards pn is not in flight *)
Theorem c10_sent_exact : forall h j all pn, sreach h j all ->
  exists j', on_packet_acked j pn = Some (j', if in_flight j pn then carried all pn else [])
    /\ in_flight j' pn = false
    /\ (forall q, q <> pn -> s_get j' q = s_get j q) /\ s_next j' = s_next j.
Proof. intros h j all pn R. apply c10_sent_exact_step. apply (c10_sent_inv _ _ _ R). Qed.

Theorem c10_sent_lost : forall j all pn, SInv j all ->
  exists j', may_loss_packet j pn = Some (j', if in_flight j pn then carried all pn else [])
    /\ in_flight j' pn = in_flight j pn
    /\ (forall q, q <> pn -> s_get j' q = s_get j q) /\ s_next j' = s_next j.
Proof.
  intros j all pn I. destruct (feed_spec maybe_lost j all pn maybe_lost_feeder I) as (j' & Hf).
  destruct (feed_get _ _ _ _ _ Hf) as [Hn Hg]. exists j'. repeat split; [exact Hf| | |exact Hn].
  - rewrite !in_flight_flying, Hg, Z.eqb_refl. destruct (s_get j pn) as [[]|]; reflexivity.
  - intros q Hq. rewrite Hg. apply Z.eqb_neq in Hq. rewrite Hq. reflexivity.
Qed.

(* reported as delivered once: after an acknowledgement of an already sent pn, every later
   acknowledgement or loss declaration of pn yields nothing *)
Theorem c10_sent_once : forall h1 h2 pn ja alla j all,
  sreach h1 ja alla -> pn < s_next ja ->
  sreach (h1 ++ EvAcked pn :: h2) j all ->
  exists j1 j2, on_packet_acked j pn = Some (j1, []) /\ may_loss_packet j pn = Some (j2, []).
Proof.
  intros h1 h2 pn ja alla j all Ra Hlt R.
  pose proof (proj1 (c10_sent_inv _ _ _ Ra)) as Ia. pose proof (proj1 (c10_sent_inv _ _ _ R)) as I'.
  destruct Ra as [_ E1]. destruct R as [_ H]. rewrite ev_run_app, E1 in H. cbn [ev_run ev_step] in H.
  destruct (c10_sent_exact_step ja alla pn Ia) as (jb & Ha & Hfl & _ & Hnx).
  rewrite Ha in H.
  assert (Hfin : settled j pn) by (eapply ev_run_settled; [|exact H]; split; [lia|exact Hfl]).
  destruct (c10_sent_exact_step j all pn I') as (j1 & H1 & _).
  destruct (c10_sent_lost j all pn I') as (j2 & H2 & _).
  rewrite (proj2 Hfin) in H1, H2. eauto.
Qed.

(* the invariant is preserved by every step, and no step of a SentRotateGuard can panic *)
Theorem c10_sent_step : forall j all e j' all' out, SInv j all -> ev_ok e ->
  ev_step j all e = Some (j', all', out) -> SInv j' all'.
Proof. exact ev_step_inv. Qed.

Theorem c10_sent_no_panic : forall j all e, SInv j all ->
  match e with EvNew _ _ => True | _ => ev_step j all e <> None end.
Proof.
  intros j all e I. destruct e; cbn [ev_step].
  - trivial.
  - destruct (c10_sent_exact_step j all pn I) as (jn & Hf & _). rewrite Hf. discriminate.
  - destruct (c10_sent_lost j all pn I) as (jn & Hf & _). rewrite Hf. discriminate.
  - pose proof (fast_total j all now I). destruct (fast_retransmit j now) as [[jn o]|]; congruence.
  - discriminate.
  - pose proof (resize_total j all now I). destruct (resize j now); congruence.
Qed.

(* a SentRotateGuard life as executed by the stream is such an event sequence *)
Theorem c10_rotate_is_events : forall ops j now j' outs all,
  rotate j now ops = (Some j', outs) ->
  ev_run j all (map (ev_of now) ops ++ [EvResize now]) = Some (j', all).
Proof.
  intros ops j now j' outs all H. unfold rotate in H.
  destruct (rot_run j now ops) as [[j1|] os] eqn:E; [|discriminate].
  rewrite ev_run_app, (rot_run_events _ _ _ _ _ all E). cbn [ev_run ev_step].
  destruct (resize j1 now) as [j2|]; inversion H; subst. reflexivity.
Qed.

(* the discipline is needed: a guard dropped after record_frame shifts the attribution *)
Theorem c10_sent_needs_discipline :
  let h := [EvNew 0 (mknp [7] false NpAbandon 10 10); EvNew 0 (mknp [8] false NpBuildTime 10 10)] in
  match ev_run sj_new [] h with
  | Some (j, all) => on_packet_acked j 0 = Some (mksj [7; 8] 0 [SAcked 1 0 10] 0, [7]) /\ carried all 0 = [8]
  | None => False
  end.
Proof. vm_compute. split; reflexivity. Qed.

Example c10_nonvacuous_rcvd :
  let h := [RvRcvd 0 1 true 10; RvRcvd 0 3 true 10; RvRcvd 1 4 false 10; RvRcvd 1 3 true 10; RvRcvd 2 8 true 10;
            RvGenAck 3 5 8 2 9; RvPeerAck 4 (mkack 5 0 0 []); RvRcvd 5 9 true 10; RvGenAck 50 6 9 5 100] in
  Forall rv_ok h /\
  match rv_run (rj_new (Some 25)) [] h with
  | Some (j, reg) =>
      In 9 reg /\ r_off j = 1 /\
      match gen_ack j 50 7 9 5 12, gen_ack j 50 7 9 5 11 with
      | GaOk _ f, GaOk _ f' =>
          f = mkack 9 45000 1 [(2, 1); (0, 0)] /\ ack_encoding_size f = 12 /\ full_size j 50 9 5 = 12 /\
          f' = mkack 9 45000 1 [(2, 1)] /\ ack_encoding_size f' = 10
      | _, _ => False
      end
  | None => False
  end.
Proof. cbv zeta. split; [repeat constructor; cbn; try discriminate; auto|]. vm_compute. repeat split; auto. Qed.

Example c10_nonvacuous_sent :
  let h := [EvNew 0 (mknp [11; 12] false NpBuildTime 5 50);
            EvNew 0 (mknp [] false NpAbandon 5 50);
            EvNew 1 (mknp [] true NpBuildTrivial 5 50);
            EvNew 2 (mknp [13] true NpBuildTime 5 50);
            EvLargest 2; EvLost 0; EvAcked 2] in
  Forall ev_ok h /\
  match ev_run sj_new [] h with
  | Some (j, all) =>
      all = [[11; 12]; []; [13]] /\ in_flight j 0 = true /\ in_flight j 2 = false /\
      on_packet_acked j 0 = Some (mksj [11; 12; 13] 0 [SAcked 2 0 50; SSkipped; SAcked 1 2 52] 2, [11; 12])
  | None => False
  end.
Proof.
  cbv zeta. split; [|vm_compute; repeat split; reflexivity].
  repeat apply Forall_cons; try apply Forall_nil; try exact I; cbn.
  - right. discriminate.
  - reflexivity.
  - left. reflexivity.
Qed.

Print Assumptions c10_ack_sound.
Print Assumptions c10_ack_sound_needs_registered_largest.
Print Assumptions c10_ack_fields.
Print Assumptions c10_ack_fits.
Print Assumptions c10_ack_largest.
Print Assumptions c10_ack_complete.
Print Assumptions c10_ack_exact_fit.
Print Assumptions c10_genack_keeps_tracked.
Print Assumptions c10_accept_once.
Print Assumptions c10_accept_once_forever.
Print Assumptions c10_sent_inv.
Print Assumptions c10_sent_exact.
Print Assumptions c10_sent_exact_step.
Print Assumptions c10_sent_lost.
Print Assumptions c10_sent_once.
Print Assumptions c10_sent_step.
Print Assumptions c10_sent_no_panic.
Print Assumptions c10_rotate_is_events.
Print Assumptions c10_sent_needs_discipline.
Print Assumptions c10_nonvacuous_rcvd.
Print Assumptions c10_nonvacuous_sent.
