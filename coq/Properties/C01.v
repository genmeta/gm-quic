(* C01 — stream data is delivered reliably, in order, exactly once.
   Only the property theorems live here: each follows in a few lines (ten at most) from the lemmas of
   Proofs/Streams.v (per-flow safety, reader wake-ups), Proofs/StreamsSys.v (lifting to the two-endpoint system, cursor),
   Proofs/StreamsLive.v (liveness of one flow) or Proofs/StreamsRound.v (the fair round of the two endpoints),
   and its assumptions are printed for the audit.

   [flow_reach c fl P] : the flow [fl] (Sender over the C09 SendBuf model, Recver over the C08 RecvBuf
   model) and the frames [P] it has put on the wire so far, after ANY sequence of application calls
   (write / flush / shutdown / cancel / read / stop), emissions with any capacity, token count and
   credit, and deliveries / acknowledgements / loss reports of any frame of [P], in any order, any
   number of times ([justified]).  No class restriction: with the repaired SendBuf (finding F29 fixed)
   feedback for the empty range of a FIN-only frame is the identity.
   [rc_got] = every byte handed to the reader, [rc_eos] = the reader was told the stream ended. *)
From Coq Require Import List NArith ZArith.
From GQ Require Import Lib.Base Model.SendBuf Model.RecvBuf Model.Streams Proofs.Streams Proofs.StreamsSys Proofs.StreamsLive Proofs.StreamsRound.
Import ListNotations.
Local Open Scope N_scope.

(* the invariant is inductive over every justified operation *)
Theorem c01_step_inv : forall c fl P o fl' new out,
  FI c fl P -> justified P o -> flow_step c fl o = (fl', new, out) -> FI c fl' (P ++ new).
Proof. exact flow_step_inv. Qed.

(* reliable, in order, exactly once; end of stream only after the last byte and only after shutdown *)
Theorem c01_safety : forall c fl P, flow_reach c fl P ->
  is_prefix (rc_got (fl_rcv fl)) (written_bytes c fl) /\
  (rc_eos (fl_rcv fl) = true ->
   rc_got (fl_rcv fl) = written_bytes c fl /\ sn_shutcalled (fl_snd fl) = true).
Proof.
  intros c fl P H. destruct (reach_FI _ _ _ H) as [HS (R1 & R2 & R3 & R4 & R5 & R6)].
  destruct R1 as (_ & I2 & _). unfold written_bytes. split.
  - exists (slice c (nread (rc_buf (fl_rcv fl))) (wr (fl_snd fl) - nread (rc_buf (fl_rcv fl)))).
    rewrite R3, <- (Slice.slice_app c 0), N.add_comm, N.sub_add; [reflexivity|exact (N.le_trans _ _ _ I2 R2)].
  - intro He. rewrite (R5 He) in R4. destruct R4 as (A1 & _ & A3). rewrite R3, A1. auto.
Qed.

(* what is on the wire: every STREAM frame names exactly the written slice it carries; FIN only at
   the written length, only after shutdown, and then nothing more is ever written *)
Theorem c01_frames : forall c fl P off len fin d, flow_reach c fl P -> In (FrS off len fin d) P ->
  d = slice c off len /\ off + len <= wr (fl_snd fl) /\
  (fin = true -> off + len = wr (fl_snd fl) /\ sn_shutcalled (fl_snd fl) = true /\ past_fin (fl_snd fl)).
Proof.
  intros c fl P off len fin d H Hin. destruct (reach_FI _ _ _ H) as [(_ & HF & _) _].
  destruct (HF _ Hin) as (F1 & F2 & F3 & _). split; [exact F1|split; [exact F2|exact F3]].
Qed.

Theorem c01_rcvbuf : forall c fl P, flow_reach c fl P ->
  RB.Inv c (rc_buf (fl_rcv fl)) /\ largest (rc_buf (fl_rcv fl)) <= wr (fl_snd fl) /\
  rc_got (fl_rcv fl) = slice c 0 (nread (rc_buf (fl_rcv fl))).
Proof. intros c fl P H. destruct (reach_FI _ _ _ H) as [_ (R1 & R2 & R3 & _)]. auto. Qed.

(* resets: the reader gets the reset error or a prefix, a reset is never invented, its final size
   never exceeds what was written *)
Theorem c01_reset_safe : forall c fl P, flow_reach c fl P ->
  is_prefix (rc_got (fl_rcv fl)) (written_bytes c fl) /\
  ((rc_st (fl_rcv fl) = RResetRcvd \/ rc_st (fl_rcv fl) = RResetRead) -> exists err final, In (FrR err final) P) /\
  (forall err final, In (FrR err final) P -> final <= wr (fl_snd fl) /\ is_reset (fl_snd fl)).
Proof.
  intros c fl P H. split; [exact (proj1 (c01_safety _ _ _ H))|].
  destruct (reach_FI _ _ _ H) as [(_ & HF & _) (_ & _ & _ & _ & _ & R6)]. split; [exact R6|].
  intros err final Hin. exact (HF _ Hin).
Qed.

(* lifting: every flow of every state the two-endpoint system reaches, for every op list, is a
   reachable flow over the projection of the pool on its key; hence safety for the system model that the
   correspondence stream `stream_e2e` runs against the implementation *)
Theorem c01_reach_system : forall rot w dirs ops key fl,
  StreamCtl.alookup (sy_flows (sys_exec (sys_init rot w dirs) ops)) key = Some fl ->
  flow_reach (cof key) fl (proj key (sy_pool (sys_exec (sys_init rot w dirs) ops))).
Proof. intros rot w dirs ops key fl H. exact (sys_exec_inv ops _ (SysInv_init rot w dirs) key fl H). Qed.

Theorem c01_safety_system : forall rot w dirs ops key fl,
  StreamCtl.alookup (sy_flows (sys_exec (sys_init rot w dirs) ops)) key = Some fl ->
  is_prefix (rc_got (fl_rcv fl)) (written_bytes (cof key) fl) /\
  (rc_eos (fl_rcv fl) = true ->
   rc_got (fl_rcv fl) = written_bytes (cof key) fl /\ sn_shutcalled (fl_snd fl) = true).
Proof. intros rot w dirs ops key fl H. exact (c01_safety _ _ _ (c01_reach_system _ _ _ _ _ _ H)). Qed.

(* the cursor: whatever Output.cursor holds, one try_load_data_into_once offers the packet to every
   member of the output set with at least one token; and when it ends without a frame, every listed
   stream was tried and declined *)
Theorem c01_cursor_visits_all : forall rot cursor keys k,
  In k keys -> exists tok, In (k, tok) (load_order rot cursor keys) /\ 1 <= tok.
Proof. exact load_order_visits. Qed.

(* finding F60 in the model: the output set is sorted by stream id ([c01_output_sorted]); as coded
   (rot = false) a cursor stream that has used up its tokens heads the next round again; with the prepared
   repair (rot = true) it is offered the packet only after every other member of the output set *)
Theorem c01_output_sorted : forall s side, asc (map fst (outgoing_keys s side)).
Proof.
  intros s side. unfold outgoing_keys. induction (sy_flows s) as [|kf t IH]; cbn [fold_right]; [exact I|].
  destruct (_ && _ && _)%bool; [apply asc_ainsert; exact IH|exact IH].
Qed.

Theorem c01_cursor_no_rotation : forall c keys, asc keys -> In c keys ->
  exists rest, load_order false (Some (c, 0)) keys = (c, StreamCtl.DEFAULT_TOKENS) :: rest.
Proof.
  intros c keys Ha Hin. unfold load_order. cbn [N.eqb]. destruct (filter_le_last c keys Ha Hin) as [t Ht].
  rewrite Ht, rev_app_distr. cbn [rev app map]. eauto.
Qed.

Theorem c01_cursor_rotates : forall c keys, asc keys -> In c keys ->
  exists front, load_order true (Some (c, 0)) keys = front ++ [(c, StreamCtl.DEFAULT_TOKENS)] /\
    forall k, In k keys -> k <> c -> In (k, StreamCtl.DEFAULT_TOKENS) front.
Proof.
  intros c keys Ha Hin. unfold load_order. cbn [N.eqb]. destruct (filter_ge_head c keys Ha Hin) as [t Ht].
  rewrite Ht. cbn [rev]. rewrite app_assoc, map_app. cbn [map].
  eexists. split; [reflexivity|]. intros k Hk Hne. apply in_map_iff. exists k. split; [reflexivity|].
  apply in_or_app. destruct (N.lt_ge_cases k c) as [Hlt|Hge].
  - left. apply -> in_rev. apply filter_In. split; [exact Hk|apply N.ltb_lt; exact Hlt].
  - right. apply -> in_rev. assert (Hf : In k (filter (fun k0 => c <=? k0) keys)) by (apply filter_In; split; [exact Hk|apply N.leb_le; exact Hge]).
    rewrite Ht in Hf. destruct Hf as [Hq|Hf]; [congruence|exact Hf].
Qed.

Theorem c01_emit_none_all_tried : forall skeys cap credit order s s',
  try_streams s skeys order cap credit = (s', None) ->
  forall sid tok key, In (sid, tok) order -> StreamCtl.alookup skeys sid = Some key ->
    (exists fl, StreamCtl.alookup (sy_flows s) key = Some fl) ->
    exists s1 s2 fr out, on_flow s1 key (FTry (pred_of_packet cap sid tok) credit) = Some (s2, fr, out) /\ fo_pick out = None.
Proof.
  intros skeys cap credit order s s' E sid tok key Hin Hk Hfl.
  destruct (proj2 (try_streams_out skeys cap credit (fun _ => True) kinv kinv_refl kinv_trans
                     (fun a _ _ k b fr out _ Eo => on_flow_kinv a k _ b fr out Eo) order s s' None
                     (proj2 (Forall_forall _ _) (fun _ _ => I)) E)
                  eq_refl _ _ _ Hin Hk) as (s1 & K & [Hn|(s2 & fr & out & Eo & Ep & _)]).
  - (* the flows of [s] are still there when the turn of [sid] comes *)
    destruct (kinv_keeps _ _ _ K Hfl) as [fl Hf]. congruence.
  - exists s1, s2, fr, out. auto.
Qed.

(* liveness of one flow, in general: from EVERY reachable state without reset whose written length is
   within the stream window, one good round — lose every frame of the pool; emit (any predicate that
   always grants >= 1 byte, i.e. capacity >= 26, any credit >= 1) until nothing more is emitted, the
   boolean excluding fuel exhaustion; deliver every frame; acknowledge every frame — ends in [flow_done]:
   everything written is readable, after shutdown the recver is DataRcvd/DataRead and the sender DataRcvd,
   poll_flush answers Ready and (after shutdown) poll_shutdown answers Ready; two reads with room then
   return exactly the written bytes and, after shutdown, report the end *)
Theorem c01_progress_flow : forall c fl P pred credit fuel fl' P',
  flow_reach c fl P -> ~ is_reset (fl_snd fl) -> wr (fl_snd fl) <= md (fl_snd fl) ->
  good_pred pred -> credit <> 0 ->
  good_round fuel c fl P pred credit = (fl', P', true) ->
  flow_done fl' /\
  forall room fl'' P'', wr (fl_snd fl') < room -> run c fl' P' [FRead room; FRead room] = (fl'', P'') ->
    rc_got (fl_rcv fl'') = written_bytes c fl'' /\ (sn_shutcalled (fl_snd fl'') = true -> rc_eos (fl_rcv fl'') = true).
Proof.
  intros c fl P pred credit fuel fl' P' Hre Hnr Hw Hg Hc E. unfold good_round in E.
  destruct (lose_phase c fl P (conj Hre (conj Hnr Hw))) as (fl1 & E1 & Hr1). rewrite E1 in E.
  destruct (emit_loop fuel c fl1 P pred credit) as [[fl2 P2] ok] eqn:E2.
  destruct (run c fl2 P2 (flat_map deliver_op P2)) as [fl3 P3] eqn:E3.
  destruct (run c fl3 P3 (flat_map ack_op P3)) as [fl4 P4] eqn:E4. injection E as <- <- ->.
  destruct (emit_phase c pred credit Hg Hc fuel fl1 P fl2 P2 Hr1 E2) as [Hr2 Hd2].
  destruct (finish c fl2 P2 Hr2 Hd2) as (g3 & g4 & G1 & G2 & G3 & G4 & G5).
  rewrite G1 in E3. injection E3 as <- <-. rewrite G2 in E4. injection E4 as <- <-.
  split; [exact G3|]. intros room fl'' P'' Hroom Er. eapply reads_finish; eauto.
Qed.

(* the same from any drained state, whatever led to it (the form the system-level round uses) *)
Theorem c01_progress_drained : forall c fl P,
  round_ok c fl P -> snd_drained (fl_snd fl) ->
  exists fl3 fl4, run c fl P (flat_map deliver_op P) = (fl3, P) /\ run c fl3 P (flat_map ack_op P) = (fl4, P) /\
                  flow_done fl4 /\ FI c fl4 P /\ ~ is_reset (fl_snd fl4).
Proof. exact finish. Qed.

(* liveness of the two endpoints.  [sys_round fuel cap s] = report every frame of the pool lost; emit on
   the client, then on the server, until an emission finds nothing (the boolean excludes fuel exhaustion);
   deliver every frame of the pool; acknowledge every frame of the pool.
   From EVERY state the system reaches (any op list) that is open, without reset / stop (no sender reset,
   only STREAM frames in the pool) and with every written length within its stream window, the round
   completes ([flow_done]) every flow of the client, every flow of a stream the server has learnt of, and
   every flow that has already left the output set.  (A server flow of a stream the server has not learnt
   of has no Writer, nothing can have been written on it, and nothing is claimed for it.) *)
Theorem c01_progress : forall rot w dirs ops fuel cap s',
  Forall (fun d => d = 0 \/ d = 1) dirs ->
  let s := sys_exec (sys_init rot w dirs) ops in
  sy_closed s = false ->
  (forall key fl, StreamCtl.alookup (sy_flows s) key = Some fl -> ~ is_reset (fl_snd fl) /\ wr (fl_snd fl) <= md (fl_snd fl)) ->
  (forall key f, In (key, f) (sy_pool s) -> is_frs f) ->
  26 <= cap -> cap < two62 -> sys_round fuel cap s = (s', true) ->
  forall key fl, StreamCtl.alookup (sy_flows s) key = Some fl ->
    (key_side key = 0 \/ known s (key_stream key) = true \/ sn_inset (fl_snd fl) = false) ->
    exists fl', StreamCtl.alookup (sy_flows s') key = Some fl' /\ flow_done fl'.
Proof. exact p_c01_progress_reachable. Qed.

(* the same from any calm state, for the members of the output sets; and the state after the round is calm
   again, hence each of its flows is [flow_reach]able and [c01_done_reads] applies to it *)
Theorem c01_progress_system : forall fuel cap s s',
  Calm s -> 26 <= cap -> cap < two62 -> sys_round fuel cap s = (s', true) ->
  forall key fl, StreamCtl.alookup (sy_flows s) key = Some fl ->
    (sn_inset (fl_snd fl) = false \/ listed s 0 key \/ listed s 1 key) ->
    exists fl', StreamCtl.alookup (sy_flows s') key = Some fl' /\ flow_done fl'.
Proof. exact p_c01_progress_system. Qed.

Theorem c01_round_calm : forall fuel cap s, Calm s -> Calm (fst (sys_round fuel cap s)).
Proof.
  intros fuel cap s Hc. unfold sys_round.
  destruct (lose_all_spec s Hc) as [Hc1 _].
  destruct (sys_emit_loop fuel (lose_all s) 0 cap) as [s2 ok0] eqn:E0. destruct (sys_emit_loop_spec _ _ _ _ _ _ Hc1 E0) as [[Hc2 _] _].
  destruct (sys_emit_loop fuel s2 1 cap) as [s3 ok1] eqn:E1. destruct (sys_emit_loop_spec _ _ _ _ _ _ Hc2 E1) as [[Hc3 _] _].
  destruct (deliver_all_spec _ Hc3) as (Hc4 & _). exact (proj1 (ack_all_spec _ Hc4)).
Qed.

Theorem c01_done_reads : forall c fl P room fl' P',
  flow_reach c fl P -> ~ is_reset (fl_snd fl) -> flow_done fl -> wr (fl_snd fl) < room ->
  run c fl P [FRead room; FRead room] = (fl', P') ->
  rc_got (fl_rcv fl') = written_bytes c fl' /\ (sn_shutcalled (fl_snd fl') = true -> rc_eos (fl_rcv fl') = true).
Proof. intros c fl P room fl' P' Hre. apply reads_finish. apply reach_FI. exact Hre. Qed.

(* no lost wake-up (the application's side of "eventually becomes readable"): a task that was told Pending by
   Reader::poll_read runs again only when the waker it parked is woken.  In every reachable state, for any
   interleaving whatsoever, a parked reader waker ([rc_readw]) coexists only with a stream on which poll_read
   still answers Pending: as soon as bytes, the end of the stream or a reset can be read - however they got
   there: fresh data, a retransmission filling a hole below the highest received offset, the FIN, the last
   hole of a stream of known size, a RESET_STREAM - the waker has been taken and woken.  And the waker is never
   dropped silently: each operation leaves a parked reader parked or wakes it exactly once. *)
Theorem c01_no_lost_wakeup : forall c fl P room r' z out,
  flow_reach c fl P -> rc_readw (fl_rcv fl) = true ->
  rc_poll_read (fl_rcv fl) room = (r', z, out) -> z = 0%Z /\ out = [] /\ rc_readw r' = true.
Proof.
  intros c fl P room r' z out HR Hw E. destruct (reach_nolost _ _ _ HR Hw) as [[A|[f A]] B];
    unfold rc_poll_read in E; rewrite A, B in E; injection E as <- <- <-; auto.
Qed.

(* parked with the same wake count, or woken by exactly one wake-up; and a wake-up is only ever delivered
   to a parked waker *)
Theorem c01_wake_or_parked : forall c fl o fl' new out,
  flow_step c fl o = (fl', new, out) ->
  (rc_readw (fl_rcv fl) = true ->
     (rc_readw (fl_rcv fl') = true /\ rc_wakes (fl_rcv fl') = rc_wakes (fl_rcv fl)) \/
     (rc_readw (fl_rcv fl') = false /\ rc_wakes (fl_rcv fl') = rc_wakes (fl_rcv fl) + 1)) /\
  (rc_readw (fl_rcv fl) = false -> rc_wakes (fl_rcv fl') = rc_wakes (fl_rcv fl)).
Proof.
  intros c fl o fl' new out E. destruct (flow_step_wake _ _ _ _ _ _ E) as [_ [[K1 K2]|[W1 W2]]].
  - split; [intro W; left; split; [exact (K2 W)|exact K1]|intros _; exact K1].
  - split; intro W; rewrite W in W2; [right; split; [exact W1|exact W2]|rewrite W2; apply N.add_0_r].
Qed.

Theorem c01_no_lost_wakeup_system : forall rot w dirs ops key fl room r' z out,
  StreamCtl.alookup (sy_flows (sys_exec (sys_init rot w dirs) ops)) key = Some fl ->
  rc_readw (fl_rcv fl) = true ->
  rc_poll_read (fl_rcv fl) room = (r', z, out) -> z = 0%Z /\ out = [] /\ rc_readw r' = true.
Proof. intros rot w dirs ops key fl room r' z out H. eapply c01_no_lost_wakeup. exact (c01_reach_system _ _ _ _ _ _ H). Qed.

(* non-vacuity: the second of two frames overtakes the first, the reader polls and parks on the hole (no FIN);
   the first frame then fills the hole BELOW the highest received offset (0 fresh bytes for flow control):
   the parked reader is woken by that very delivery and the stream is readable *)
Definition parked_ops : list op :=
  [OWrite 0 0 56; OEmit 0 30 30; OEmit 0 30 30; ODeliver 1; ORead 1 0 7].

Example c01_no_lost_wakeup_nonvacuous :
  (match StreamCtl.alookup (sy_flows (sys_exec (sys_init false 1048576 [0]) parked_ops)) 0 with
   | Some fl => rc_readw (fl_rcv fl) = true /\ rc_wakes (fl_rcv fl) = 0 /\ largest (rc_buf (fl_rcv fl)) = 55
   | None => False end) /\
  (match StreamCtl.alookup (sy_flows (sys_exec (sys_init false 1048576 [0]) (parked_ops ++ [ODeliver 0]))) 0 with
   | Some fl => rc_readw (fl_rcv fl) = false /\ rc_wakes (fl_rcv fl) = 1 /\ is_readable (rc_buf (fl_rcv fl)) = true
   | None => False end) /\
  nth 5 (sys_run (sys_init false 1048576 [0]) (parked_ops ++ [ODeliver 0])) [] = [0; 0; 1; 0; 0]%Z.
Proof. vm_compute. repeat split. Qed.

(* the two endpoints: a schedule with two streams, chunked writes, small packets, a lost frame that
   is retransmitted at different boundaries, FIN delivered before data, duplicates, acks after loss, and
   then the fair round (lose all, emit until drained, deliver all, ack all): everything written is read,
   the end is reported, flush and shutdown are Ready (liveness on this instance; the general statements are
   c01_progress_flow and c01_progress above) *)
Definition fair_round (cap : N) (n_emit n_pool : nat) : list op :=
  map OLose (seqN n_pool) ++ repeat (OEmit 0 cap cap) n_emit ++ repeat (OEmit 1 cap cap) n_emit
  ++ map ODeliver (seqN (n_pool + 2 * n_emit)) ++ map OAck (seqN (n_pool + 2 * n_emit)).

Definition demo_ops : list op :=
  [OWrite 0 0 40; OWrite 0 1 25; OEmit 0 30 30; OEmit 0 30 30; OWrite 0 0 10; OShutdown 0 0; OShutdown 0 1;
   OEmit 0 30 30; OEmit 0 30 30; OEmit 0 30 30; OLose 1; OLose 3; ODeliver 4; ODeliver 4; ODeliver 2; ORead 1 0 5;
   OEmit 0 41 41; OAck 3; OAck 0; ODeliver 0; OWrite 1 0 9; OShutdown 1 0; OEmit 1 64 64; OLose 6]
  ++ fair_round 33 6 8
  ++ [ORead 1 0 100; ORead 1 0 100; ORead 1 1 100; ORead 1 1 100; ORead 0 0 100; ORead 0 0 100].

Definition flow_done_b (s : sys) (key : N) : bool :=
  match StreamCtl.alookup (sy_flows s) key with
  | Some fl =>
    (lenN (rc_got (fl_rcv fl)) =? wr (fl_snd fl)) && rc_eos (fl_rcv fl)
    && (match sn_st (fl_snd fl) with SDataRcvd => true | _ => false end)
    && (match snd_poll_flush (fl_snd fl) with (_, 1%Z) => true | _ => false end)
    && (match snd_poll_shutdown (fl_snd fl) with (_, 1%Z) => true | _ => false end)
  | None => false
  end.

Example c01_progress_instance :
  let s := sys_exec (sys_init false 1048576 [0; 1]) demo_ops in
  flow_done_b s 0 = true /\ flow_done_b s 1 = true /\ flow_done_b s 2 = true /\
  (exists fl, StreamCtl.alookup (sy_flows s) 0 = Some fl /\ wr (fl_snd fl) = 50 /\ rc_got (fl_rcv fl) = slice (cof 0) 0 50).
Proof. vm_compute. repeat split. eexists. repeat split. Qed.

(* non-vacuity of c01_progress: on the state reached by the schedule above before its closing round, the
   round function itself ends with the boolean true (fuel 40, capacity 33) and completes the three flows *)
Definition demo_prefix : list op := firstn 24 demo_ops.

Example c01_progress_nonvacuous :
  let s := sys_exec (sys_init false 1048576 [0; 1]) demo_prefix in
  sy_closed s = false /\ snd (sys_round 40 33 s) = true /\
  (let s' := fst (sys_round 40 33 s) in
   existsb (fun key => match StreamCtl.alookup (sy_flows s') key with
                       | Some fl => negb ((nread (rc_buf (fl_rcv fl)) + available (rc_buf (fl_rcv fl)) =? wr (fl_snd fl))
                                          && match sn_st (fl_snd fl) with SDataRcvd => true | _ => false end)
                       | None => true end) [0; 1; 2] = false).
Proof. vm_compute. repeat split. Qed.

Print Assumptions c01_step_inv.
Print Assumptions c01_safety.
Print Assumptions c01_frames.
Print Assumptions c01_rcvbuf.
Print Assumptions c01_reset_safe.
Print Assumptions c01_reach_system.
Print Assumptions c01_safety_system.
Print Assumptions c01_cursor_visits_all.
Print Assumptions c01_output_sorted.
Print Assumptions c01_cursor_no_rotation.
Print Assumptions c01_cursor_rotates.
Print Assumptions c01_emit_none_all_tried.
Print Assumptions c01_progress_flow.
Print Assumptions c01_progress_drained.
Print Assumptions c01_progress.
Print Assumptions c01_progress_system.
Print Assumptions c01_round_calm.
Print Assumptions c01_done_reads.
Print Assumptions c01_no_lost_wakeup.
Print Assumptions c01_wake_or_parked.
Print Assumptions c01_no_lost_wakeup_system.
Print Assumptions c01_no_lost_wakeup_nonvacuous.
Print Assumptions c01_progress_instance.
Print Assumptions c01_progress_nonvacuous.
