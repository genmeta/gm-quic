(* Round-trip and size proofs for the frame codec (property C05), and what they give for admission:
   a frame that was admitted into a packet by size always fits. *)
From Coq Require Import List ZArith Bool Lia.
From GQ Require Import Lib.Wire Model.Varint Model.Frames Model.Admission Proofs.Wire.
Import ListNotations.
Local Open Scope Z_scope.

Definition is_ext (t : ftype) : bool :=
  match t with TAddAddress _ | TRemoveAddress | TPunchMeNow _ | TPunchHello | TPunchDone => true | _ => false end.

Lemma ft_table t :
  ft_of_code (code_of_ft t) = Some t /\ varint_ok (code_of_ft t) /\ ft_size t = if is_ext t then 4 else 1.
Proof. destruct t; try (destruct off, len, fin); try (destruct ecn); try (destruct uni);
       try (destruct app); try (destruct with_len); try (destruct v6); vm_compute; repeat split; congruence. Qed.

Lemma ft_roundtrip t : ft_of_code (code_of_ft t) = Some t.
Proof. apply ft_table. Qed.
Lemma ft_code_ok t : varint_ok (code_of_ft t).
Proof. apply ft_table. Qed.
Lemma ft_size_ext t : ft_size t = if is_ext t then 4 else 1.
Proof. apply ft_table. Qed.

Lemma ft_lookup_sound : forall tbl v t, ft_lookup tbl v = Some t -> In (v, t) tbl.
Proof.
  induction tbl as [|[c t'] r IH]; intros v t H; cbn [ft_lookup] in H; [discriminate|].
  destruct (Z.eqb_spec c v) as [->|NE]; [injection H as <-; now left|right; auto].
Qed.

Lemma ft_decode_encode : forall v t, ft_of_code v = Some t -> code_of_ft t = v.
Proof.
  intros v t H. apply ft_lookup_sound in H.
  assert (T : forallb (fun e => code_of_ft (snd e) =? fst e) ft_decode_table = true) by (vm_compute; reflexivity).
  rewrite forallb_forall in T. apply T in H. apply Z.eqb_eq in H. exact H.
Qed.

Lemma error_kind_valid_ok k : error_kind_valid k = true -> varint_ok k.
Proof.
  unfold error_kind_valid. intro H. apply existsb_exists in H. destruct H as [[lo hi] [Hin Hr]].
  assert (T : forallb (fun r => (0 <=? fst r) && (snd r <? 2 ^ 62)) error_kind_ranges = true) by reflexivity.
  rewrite forallb_forall in T. apply T in Hin. cbn [fst snd] in *. unfold varint_ok. lia.
Qed.

Lemma zlen_app {A} (a b : list A) : zlen (a ++ b) = zlen a + zlen b.
Proof. unfold zlen. rewrite app_length. lia. Qed.
Lemma zlen_cons {A} (x : A) l : zlen (x :: l) = 1 + zlen l.
Proof. unfold zlen. cbn [length]. lia. Qed.
Lemma zlen_nil {A} : zlen (@nil A) = 0.
Proof. reflexivity. Qed.
Lemma zlen_nonneg {A} (l : list A) : 0 <= zlen l.
Proof. unfold zlen. lia. Qed.

Lemma firstn_zlen_app {A} (d r : list A) : firstn (Z.to_nat (zlen d)) (d ++ r) = d.
Proof.
  unfold zlen. rewrite Nat2Z.id, firstn_app, Nat.sub_diag. cbn [firstn].
  rewrite app_nil_r. apply firstn_all.
Qed.
Lemma skipn_zlen_app {A} (d r : list A) : skipn (Z.to_nat (zlen d)) (d ++ r) = r.
Proof.
  unfold zlen. rewrite Nat2Z.id, skipn_app, Nat.sub_diag. cbn [skipn].
  rewrite skipn_all. reflexivity.
Qed.

Lemma firstn_zlen {A} (d : list A) : firstn (Z.to_nat (zlen d)) d = d.
Proof. unfold zlen. rewrite Nat2Z.id. apply firstn_all. Qed.
Lemma skipn_zlen {A} (d : list A) : skipn (Z.to_nat (zlen d)) d = [].
Proof. unfold zlen. rewrite Nat2Z.id. apply skipn_all. Qed.

Lemma zlen_skipn_le {A} n (l : list A) : zlen (skipn n l) <= zlen l.
Proof. unfold zlen. rewrite skipn_length. lia. Qed.
Lemma skipn_zlen_le {A} n (l : list A) : 0 <= n <= zlen l -> zlen (skipn (Z.to_nat n) l) = zlen l - n.
Proof. intro H. unfold zlen in *. rewrite skipn_length. lia. Qed.

Lemma zlen_app_ltb {A} (d r : list A) : (zlen (d ++ r) <? zlen d) = false.
Proof. apply Z.ltb_ge. rewrite zlen_app. pose proof (zlen_nonneg r). lia. Qed.

(* the common shape of take_s, take_c and the data bodies of CRYPTO, STREAM, DATAGRAM *)
Lemma cut_app {A} (e : res A) (mk : list Z -> A) (d rest : list Z) :
  (if zlen (d ++ rest) <? zlen d then e
   else Ok (mk (firstn (Z.to_nat (zlen d)) (d ++ rest))) (skipn (Z.to_nat (zlen d)) (d ++ rest))) = Ok (mk d) rest.
Proof. now rewrite zlen_app_ltb, firstn_zlen_app, skipn_zlen_app. Qed.

Lemma take_s_app (d r : list Z) n : n = zlen d -> take_s n (d ++ r) = Ok d r.
Proof. intros ->. exact (cut_app Incomplete (fun x => x) d r). Qed.
Lemma take_c_app (d r : list Z) n : n = zlen d -> take_c n (d ++ r) = Ok d r.
Proof. intros ->. exact (cut_app (Bad EK_Eof) (fun x => x) d r). Qed.

Lemma be_uint_c_put n v r : 0 <= v < 256 ^ Z.of_nat n -> be_uint_c n (put_be n v ++ r) = Ok v r.
Proof. intro H. unfold be_uint_c. now rewrite get_be_put_be_exact. Qed.
Lemma be_uint_s_put n v r : 0 <= v < 256 ^ Z.of_nat n -> be_uint_s n (put_be n v ++ r) = Ok v r.
Proof. intro H. unfold be_uint_s. now rewrite get_be_put_be_exact. Qed.

Lemma bind_ok {A B} (p : parser A) (f : A -> parser B) bs v r : p bs = Ok v r -> bind p f bs = f v r.
Proof. unfold bind. now intros ->. Qed.

Lemma bind_varint {B} (f : Z -> parser B) x rest : varint_ok x -> bind be_varint f (put_varint x ++ rest) = f x rest.
Proof. intro H. apply bind_ok, be_varint_put_varint, H. Qed.

Definition len_ok (l : list Z) : Prop := zlen l < 2 ^ 32.

Fixpoint ranges_ok (rs : list (Z * Z)) : Prop :=
  match rs with [] => True | (g, a) :: r => varint_ok g /\ varint_ok a /\ ranges_ok r end.

Definition addr_ok (v6 : bool) (port ip : Z) : Prop :=
  0 <= port < 2 ^ 16 /\ 0 <= ip < (if v6 then 2 ^ 128 else 2 ^ 32).

Definition wf_frame (f : frame) : Prop :=
  match f with
  | Padding | Ping | HandshakeDone => True
  | Ack l d fr rs e =>
      varint_ok l /\ varint_ok d /\ varint_ok fr /\ ranges_ok rs /\ varint_ok (zlen rs) /\
      match e with Some (a, b, c) => varint_ok a /\ varint_ok b /\ varint_ok c | None => True end /\
      ack_valid l fr rs = true
  | ResetStream s e fs => varint_ok s /\ varint_ok e /\ varint_ok fs
  | StopSending s e => varint_ok s /\ varint_ok e
  | Crypto off d => varint_ok off /\ off + zlen d <= VARINT_MAX
  | NewToken t => len_ok t
  | Stream s off _ _ d => varint_ok s /\ varint_ok off /\ off + zlen d <= VARINT_MAX /\ len_ok d
  | MaxData v | DataBlocked v | RetireConnectionId v | RemoveAddress v => varint_ok v
  | MaxStreamData s v | StreamDataBlocked s v => varint_ok s /\ varint_ok v
  | MaxStreams _ v => 0 <= v <= MAX_STREAMS_LIMIT
  | StreamsBlocked _ v => varint_ok v
  | NewConnectionId seq rpt cid tok =>
      varint_ok seq /\ 0 <= rpt <= seq /\ 1 <= zlen cid <= MAX_CID_SIZE /\ zlen tok = RESET_TOKEN_SIZE
  | PathChallenge d | PathResponse d => zlen d = 8
  | CloseQuic k ft r => error_kind_valid k = true /\ (exists t, ft_of_code ft = Some t) /\ zlen r < 2 ^ 14
  | CloseApp c r => varint_ok c /\ zlen r < 2 ^ 14
  | Datagram _ d => varint_ok (zlen d)
  | AddAddress v6 seq port ip tire nat =>
      varint_ok seq /\ addr_ok v6 port ip /\ varint_ok tire /\ 0 <= nat <= 5
  | PunchMeNow v6 l r port ip tire nat =>
      varint_ok l /\ varint_ok r /\ addr_ok v6 port ip /\ varint_ok tire /\ 0 <= nat <= 5
  | PunchHello l r p | PunchDone l r p => varint_ok l /\ varint_ok r /\ varint_ok p
  end.

(* frames without an explicit length extend to the end of the packet: they must come last *)
Definition tail_ok (f : frame) (rest : list Z) : Prop :=
  match f with
  | Stream _ _ false _ _ | Datagram false _ => rest = []
  | _ => True
  end.

Lemma put_ranges_len rs : zlen (put_ranges rs) = ranges_size rs.
Proof.
  induction rs as [|[g a] r IH]; cbn [put_ranges ranges_size]; [reflexivity|].
  rewrite !zlen_app, !put_varint_length, IH. lia.
Qed.

Lemma ranges_size_bounds rs : 2 * zlen rs <= ranges_size rs <= 16 * zlen rs.
Proof.
  induction rs as [|[g a] r IH]; cbn [ranges_size]; [unfold zlen; cbn [length]; lia|].
  rewrite zlen_cons. pose proof (varint_size_pos g). pose proof (varint_size_pos a). lia.
Qed.

Lemma be_ranges_rt rs : forall fuel rest, ranges_ok rs -> (length rs < fuel)%nat ->
  be_ranges (length rs) fuel (put_ranges rs ++ rest) = Ok rs rest.
Proof.
  induction rs as [|[g a] r IH]; intros [|fuel] rest H Hf; try (inversion Hf; fail); [reflexivity|].
  cbn [length ranges_ok put_ranges be_ranges] in *. destruct H as (Hg & Ha & Hr).
  rewrite <- !app_assoc, !bind_varint by assumption.
  erewrite bind_ok by (apply IH; [assumption|lia]). reflexivity.
Qed.

Lemma be_cid_rt cid rest : zlen cid <= MAX_CID_SIZE -> be_cid (put_cid cid ++ rest) = Ok cid rest.
Proof.
  intro H. unfold be_cid, put_cid, bind, be_uint_s. cbn [app get_be]. rewrite Z.mul_0_l, Z.add_0_l.
  destruct (Z.ltb_spec MAX_CID_SIZE (zlen cid)); [lia|]. apply take_s_app. reflexivity.
Qed.

Lemma bind_cid {B} (f : list Z -> parser B) cid rest : zlen cid <= MAX_CID_SIZE ->
  bind be_cid f (put_cid cid ++ rest) = f cid rest.
Proof. intro H. apply bind_ok, be_cid_rt, H. Qed.

Lemma be_addr_rt v6 port ip rest : addr_ok v6 port ip ->
  be_addr v6 (put_addr v6 port ip ++ rest) = Ok (port, ip) rest.
Proof.
  intros [Hp Hi]. unfold be_addr, put_addr. rewrite <- app_assoc.
  erewrite !bind_ok; [reflexivity|apply be_uint_c_put|apply be_uint_c_put].
  - destruct v6; [change (256 ^ Z.of_nat 16) with (2^128)|change (256 ^ Z.of_nat 4) with (2^32)]; exact Hi.
  - change (256 ^ Z.of_nat 2) with (2^16). exact Hp.
Qed.

Lemma be_nat_rt n rest : 0 <= n <= 5 -> be_nat (put_varint n ++ rest) = Ok n rest.
Proof.
  intro H. unfold be_nat. rewrite bind_varint by (unfold varint_ok; lia).
  unfold nat_type_of. rewrite Z.mod_small by lia. destruct (Z.leb_spec n 5); [reflexivity|lia].
Qed.

Lemma mod32 l : len_ok l -> zlen l mod 2 ^ 32 = zlen l.
Proof. unfold len_ok. intro H. pose proof (zlen_nonneg l). apply Z.mod_small. lia. Qed.

Lemma len_varint_ok l : len_ok l -> varint_ok (zlen l).
Proof. unfold len_ok, varint_ok. pose proof (zlen_nonneg l). lia. Qed.

(* the length prefix of a token / reason phrase, written `as u32` *)
Lemma bind_len {B} (f : Z -> parser B) (l : list Z) rest : len_ok l ->
  bind be_varint f (put_varint (zlen l mod 2 ^ 32) ++ rest) = f (zlen l) rest.
Proof. intro H. rewrite mod32 by exact H. apply bind_varint, len_varint_ok, H. Qed.

Ltac vstep := rewrite bind_varint by (assumption || (unfold varint_ok in *; lia)).

Lemma body_rt f body rest : wf_frame f -> tail_ok f rest -> put_frame f = put_ft (frame_type f) ++ body ->
  be_body (frame_type f) (body ++ rest) = Ok f rest.
Proof.
  intros Hwf Htl E. unfold put_frame in E. apply app_inv_head in E. subst body.
  destruct f; cbn [frame_type be_body wf_frame tail_ok] in *;
    try (decompose [and] Hwf; rewrite <- ?app_assoc; repeat vstep; reflexivity).
  - (* Ack *)
    destruct Hwf as (Hl & Hd & Hf & Hrs & Hn & He & Hav). unfold bind at 1, be_ack. cbv beta.
    rewrite <- ?app_assoc. repeat vstep.
    match goal with |- context [put_ranges ranges ++ ?t] => set (tl := t) end.
    assert (Hlen : zlen ranges <= zlen (put_ranges ranges ++ tl)).
    { rewrite zlen_app, put_ranges_len. pose proof (ranges_size_bounds ranges). pose proof (zlen_nonneg tl). lia. }
    rewrite Z.min_l by lia. unfold zlen at 1. rewrite Nat2Z.id.
    erewrite bind_ok by (apply be_ranges_rt; [assumption|unfold zlen in Hlen; lia]).
    unfold tl. destruct ecn as [[[a b] c]|].
    + destruct He as (Ha & Hb & Hc). rewrite <- ?app_assoc. repeat vstep.
      unfold ret at 1. cbn [ack_verify]. now rewrite Hav.
    + unfold ret at 1. cbn [ack_verify]. now rewrite Hav.
  - (* Crypto *)
    destruct Hwf as (Ho & Hm). pose proof (zlen_nonneg data). unfold VARINT_MAX in *.
    rewrite <- ?app_assoc. repeat vstep. destruct (Z.ltb_spec (2 ^ 62 - 1) (off + zlen data)); [lia|]. apply cut_app.
  - (* NewToken *)
    rewrite <- app_assoc, bind_len by assumption. erewrite bind_ok by (apply take_s_app; reflexivity). reflexivity.
  - (* Stream *)
    destruct Hwf as (Hs & Ho & Hm & Hl). rewrite <- ?app_assoc. vstep.
    assert (Eo : forall (k : Z -> parser frame) tl, bind (if negb (off =? 0) then be_varint else ret 0) k
                   ((if off =? 0 then [] else put_varint off) ++ tl) = k off tl).
    { intros k tl. destruct (Z.eqb_spec off 0) as [->|]; [reflexivity|apply bind_varint; assumption]. }
    assert (Em : (VARINT_MAX <? off + zlen data) = false) by (apply Z.ltb_ge; exact Hm).
    rewrite Eo. destruct len_bit.
    + rewrite mod32, be_varint_put_varint by (assumption || now apply len_varint_ok).
      rewrite Em. apply cut_app.
    + subst rest. cbn [app]. rewrite app_nil_r, Em, Z.ltb_irrefl, firstn_zlen, skipn_zlen. reflexivity.
  - (* MaxStreams *)
    unfold MAX_STREAMS_LIMIT in *. vstep.
    destruct (Z.ltb_spec (2 ^ 60 - 1) v); [lia|]. reflexivity.
  - (* NewConnectionId *)
    destruct Hwf as (Hs & Hr & Hc & Ht). unfold be_new_cid. rewrite <- ?app_assoc. repeat vstep.
    destruct (Z.ltb_spec seq rpt); [lia|]. rewrite bind_cid by lia.
    destruct cid as [|c0 cid']; [rewrite zlen_nil in Hc; lia|].
    erewrite bind_ok by (apply take_c_app; now symmetry). reflexivity.
  - (* PathChallenge *)
    erewrite bind_ok by (apply take_s_app; now symmetry). reflexivity.
  - (* PathResponse *)
    erewrite bind_ok by (apply take_c_app; now symmetry). reflexivity.
  - (* CloseQuic *)
    destruct Hwf as (Hk & (t & Ht) & Hr). assert (Hl : len_ok reason) by (unfold len_ok; lia).
    unfold be_close_quic. rewrite <- ?app_assoc, bind_varint by now apply error_kind_valid_ok.
    rewrite Hk. cbn [negb].
    rewrite be_varint_put_varint by (rewrite <- (ft_decode_encode _ _ Ht); apply ft_code_ok).
    rewrite Ht, bind_len by assumption. erewrite bind_ok by (apply take_c_app; reflexivity). reflexivity.
  - (* CloseApp *)
    destruct Hwf as (Hc & Hr). assert (Hl : len_ok reason) by (unfold len_ok; lia).
    unfold be_close_app. rewrite <- ?app_assoc. vstep. rewrite bind_len by assumption.
    erewrite bind_ok by (apply take_c_app; reflexivity). reflexivity.
  - (* Datagram *)
    destruct with_len; [rewrite <- app_assoc; vstep; apply cut_app|]. subst rest. cbn [app]. now rewrite app_nil_r.
  - (* AddAddress *)
    destruct Hwf as (Hs & Ha & Ht & Hn). rewrite <- ?app_assoc. vstep.
    erewrite bind_ok by (apply be_addr_rt; assumption). vstep.
    erewrite bind_ok by (apply be_nat_rt; assumption). reflexivity.
  - (* PunchMeNow *)
    destruct Hwf as (Hl & Hr & Ha & Ht & Hn). rewrite <- ?app_assoc. repeat vstep.
    erewrite bind_ok by (apply be_addr_rt; assumption). vstep.
    erewrite bind_ok by (apply be_nat_rt; assumption). reflexivity.
Qed.

Lemma put_be_zlen n v : zlen (put_be n v) = Z.of_nat n.
Proof. unfold zlen. now rewrite put_be_length. Qed.

Lemma put_ft_len t : zlen (put_ft t) = ft_size t.
Proof. unfold put_ft, ft_size. apply put_varint_length. Qed.

Ltac szn := rewrite ?zlen_app, ?zlen_cons, ?zlen_nil, ?put_varint_length, ?put_ranges_len, ?put_be_zlen.

Lemma p_c05_frame_size f : wf_frame f -> zlen (put_frame f) = wire_size f.
Proof.
  intro Hwf. unfold put_frame, wire_size. rewrite zlen_app, put_ft_len.
  destruct f; cbn [frame_type encoding_size]; rewrite ?ft_size_ext; cbn [is_ext]; try (szn; lia);
    cbn [wf_frame] in Hwf.
  - destruct ecn as [[[a b] c]|]; szn; lia.
  - rewrite mod32 by assumption. szn. lia.
  - rewrite mod32 by apply Hwf. destruct (off =? 0), len_bit; szn; lia.
  - unfold put_cid. szn. lia.
  - rewrite mod32 by (unfold len_ok; lia). szn. lia.
  - rewrite mod32 by (unfold len_ok; lia). szn. lia.
  - destruct with_len; szn; lia.
  - unfold put_addr. szn. destruct v6; lia.
  - unfold put_addr. szn. destruct v6; lia.
Qed.

Ltac vsp := repeat match goal with |- context [varint_size ?x] => lazymatch goal with
           | H : 1 <= varint_size x <= 8 |- _ => fail
           | _ => pose proof (varint_size_pos x) end end.

Lemma p_c05_frame_max f : wf_frame f -> encoding_size f <= max_encoding_size f.
Proof.
  intro Hwf.
  destruct f; cbn [encoding_size max_encoding_size]; rewrite ?ft_size_ext; cbn [is_ext]; try (vsp; lia);
    cbn [wf_frame] in Hwf.
  - pose proof (ranges_size_bounds ranges). destruct ecn as [[[a b] c]|]; vsp; lia.
  - destruct (off =? 0), len_bit; vsp; lia.
  - unfold MAX_CID_SIZE, RESET_TOKEN_SIZE in *. vsp; lia.
  - pose proof (varint_size_cases (zlen reason)). vsp; lia.
  - pose proof (varint_size_cases (zlen reason)). vsp; lia.
  - destruct with_len; vsp; lia.
  - destruct v6; vsp; lia.
  - destruct v6; vsp; lia.
Qed.

(* a frame admitted by Package::dump occupies no more than the remaining space (header part; the
   data-bearing kinds are admitted through the strategy lemmas below) *)
Lemma p_c05_admission f remaining : wf_frame f -> admitted remaining f = true -> encoding_size f <= remaining.
Proof.
  intros Hwf H. unfold admitted in H. apply orb_true_iff in H. pose proof (p_c05_frame_max f Hwf).
  destruct H as [H|H]; apply Z.leb_le in H; lia.
Qed.

(* STREAM: with the capacity handed to the pick predicate and the strategy chosen afterwards, the
   padding plus the frame fit the original remaining space; the assert cannot fire; the inner
   admission test of dump passes; without a length field the frame fills the packet exactly *)
Lemma p_c05_stream_admission capacity sid off len cap_data : 0 <= len ->
  stream_estimate capacity sid off = Some cap_data -> len <= cap_data ->
  exists explicit pad, encoding_strategy capacity sid off len = Some (explicit, pad) /\
    0 <= pad /\
    stream_written sid off len explicit pad <= capacity /\
    (explicit = false -> stream_written sid off len explicit pad = capacity) /\
    (* dump's own test after the padding was written *)
    (STREAM_FRAME_MAX_ENCODING_SIZE <= capacity - pad \/
     stream_least sid off + (if explicit then varint_size len else 0) <= capacity - pad).
Proof.
  intros Hl He Hc. unfold stream_estimate in He.
  destruct (Z.leb_spec capacity (stream_least sid off)) as [|Hgt]; [discriminate|]. injection He as <-.
  unfold encoding_strategy, stream_written, STREAM_FRAME_MAX_ENCODING_SIZE.
  destruct (Z.ltb_spec capacity (stream_least sid off + len)) as [Hlt|Hge]; [lia|].
  pose proof (varint_size_pos len) as Hv.
  destruct (Z.leb_spec (varint_size len) (capacity - (stream_least sid off + len))) as [H1|H1].
  - destruct (Z.ltb_spec (capacity - (stream_least sid off + len) - varint_size len) 25) as [H2|H2].
    + eexists true, _. split; [reflexivity|]. repeat split; try discriminate; lia.
    + eexists true, 0. split; [reflexivity|]. repeat split; try discriminate; lia.
  - eexists false, _. split; [reflexivity|]. repeat split; lia.
Qed.

(* CRYPTO: the estimate is the largest data length whose frame fits the capacity *)
Lemma p_c05_crypto_estimate capacity off n :
  crypto_estimate capacity off = Some (Some n) ->
  0 < n /\ 1 + varint_size off + varint_size n + n <= capacity /\
  (capacity < 1 + varint_size off + varint_size (n + 1) + (n + 1)).
Proof.
  (* each arm gives n in terms of r; with the band and size of n and of n + 1 the rest is linear *)
  unfold crypto_estimate. pose proof (varint_size_cases n). pose proof (varint_size_cases (n + 1)).
  destruct (Z.ltb_spec capacity (1 + varint_size off + 2)); [discriminate|].
  remember (capacity - (1 + varint_size off + 2)) as r.
  destruct (Z.leb_spec r 62); [intros [= <-]; lia|].
  destruct (Z.leb_spec r 16383); [intros [= <-]; lia|].
  destruct (Z.leb_spec r 16385); [intros [= <-]; lia|].
  destruct (Z.leb_spec r 1073741825); [intros [= <-]; lia|discriminate].
Qed.

(* the unreachable! arm needs a capacity above 2^30 *)
Lemma p_c05_crypto_estimate_total capacity off : capacity <= 2 ^ 30 -> crypto_estimate capacity off <> None.
Proof.
  intros Hc. unfold crypto_estimate. pose proof (varint_size_pos off).
  destruct (capacity <? 1 + varint_size off + 2); [discriminate|].
  destruct (_ <=? 62); [discriminate|]. destruct (_ <=? 16383); [discriminate|].
  destruct (_ <=? 16385); [discriminate|].
  destruct (Z.leb_spec (capacity - (1 + varint_size off + 2)) 1073741825); [discriminate|lia].
Qed.
