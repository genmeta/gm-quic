(* Proofs about Model/Streams.v (property C01).  The flow invariant rests on the invariants of C09
   (Proofs/SendBuf.v) and C08 (Proofs/RecvBuf.v): its sender half is C09's [Inv /\ Tight] carried through
   step_write / step_pick / step_ack / step_loss, its recver half is C08's [Inv] carried through recv_spec /
   try_read_spec.  The last part is about the reader's waker and needs no invariant: no wake-up is lost. *)
From Coq Require Import List NArith ZArith Bool Lia.
From GQ Require Import Lib.Base Lib.Slice Model.SendBuf Model.RecvBuf Model.Streams.
From GQ Require Proofs.SendBuf Proofs.RecvBuf.
Import ListNotations.
Local Open Scope N_scope.

Module SB := GQ.Proofs.SendBuf.
Module RB := GQ.Proofs.RecvBuf.
Notation colr := SB.colr.

Definition sb_ok (b : sndbuf) : Prop := SB.Inv b /\ SB.Tight b.

Definition past_fin (s : sender) : Prop := sn_st s <> SReady /\ sn_st s <> SSending.

Definition pred_pos (pred : N -> option N) : Prop := forall o a, pred o = Some a -> 1 <= a.

Lemma sb_ok_init w : sb_ok (with_capacity w).
Proof. exact (SB.Inv_init w). Qed.

Lemma sb_sent_le b : sb_ok b -> sent b <= written b.
Proof. intros [[Hwf Hsz _] _]. destruct (SB.sent_of_spec _ Hwf) as (S1 & _). unfold sent. lia. Qed.

Lemma sb_write b n b' : sb_ok b -> write b n = Some b' ->
  sb_ok b' /\ written b' = written b + n /\ sent b' = sent b /\ max_data b' = max_data b.
Proof.
  intros [HI HT] E. destruct (SB.step_write _ _ _ HI E) as ((S1 & S2 & S3 & S5) & S6).
  split; [split; [exact S1|exact (S5 HT)]|auto].
Qed.

Lemma sb_pick c b pred flow b' s e fr d :
  sb_ok b -> pred_pos pred -> pick_up c b pred flow = UpOk b' s e fr d ->
  sb_ok b' /\ written b' = written b /\ max_data b' = max_data b /\ retained b' = retained b /\
  s < e /\ e <= written b /\ d = slice c s (e - s).
Proof.
  intros [HI HT] Hp E.
  destruct (SB.step_pick _ _ _ _ _ _ _ _ _ HI Hp E) as ((P1 & P2 & _ & P5) & Hd).
  pose proof (P5 HT) as T'. specialize (Hd HT).
  destruct (SB.pick_up_facts _ _ _ _ _ _ _ _ _ HI Hp E) as (a & _ & Hpost & _ & Er & Em & _).
  destruct Hpost as [[_ _ Q4 _ _] Q3 _ _ _].
  destruct HI as [_ Hsz _].
  split; [split; assumption|]. do 4 (split; [assumption|]). split; [lia|exact Hd].
Qed.

Lemma sb_pick_sent c b pred flow b' s e fr d :
  sb_ok b -> pred_pos pred -> pick_up c b pred flow = UpOk b' s e fr d ->
  sent b' = (if fr then e else sent b) /\ (fr = true -> s = sent b) /\ (fr = false -> e <= sent b).
Proof.
  intros [HI _] Hp E.
  destruct (SB.pick_up_facts _ _ _ _ _ _ _ _ _ HI Hp E) as (a & _ & Hpost & _).
  pose proof (SB.pick_sent _ _ _ _ _ _ _ (SB.inv_wf _ HI) Hpost) as Hs.
  unfold sent. destruct fr; destruct Hs as [Hs1 Hs2]; (split; [exact Hs2|]); split; (discriminate || auto).
Qed.

Lemma sb_ack b s e b' : sb_ok b -> on_data_acked b s e = Some b' ->
  sb_ok b' /\ written b' = written b /\ sent b' = sent b /\ max_data b' = max_data b /\ size (st b') = size (st b) /\
  (e <= sent b -> forall i, i < size (st b) -> colr (st b') i = if (s <=? i) && (i <? e) then Recved else colr (st b) i).
Proof.
  intros [HI HT] E.
  destruct (SB.step_ack b s e HI) as (b1 & E1 & (A1 & A2 & A3 & A5) & A6 & A7 & A8). rewrite E in E1. injection E1 as <-.
  split; [split; [exact A1|exact (A5 HT)]|]. do 4 (split; [assumption|]).
  intros He i Hi. rewrite A8 by exact Hi. rewrite N.min_l by exact He. reflexivity.
Qed.

Lemma sb_loss b s e b' : sb_ok b -> may_loss_data b s e = Some b' ->
  sb_ok b' /\ written b' = written b /\ sent b' = sent b /\ max_data b' = max_data b /\ retained b' = retained b.
Proof.
  intros [HI HT] E.
  destruct (SB.step_loss b s e HI) as (b1 & E1 & (A1 & A2 & A3 & A5) & A6 & _ & _ & _ & A10). rewrite E in E1. injection E1 as <-.
  split; [split; [exact A1|exact (A5 HT)]|]. auto.
Qed.

Lemma ack_some b s e : sb_ok b -> exists b', on_data_acked b s e = Some b'.
Proof.
  intros [HI _]. destruct (SB.step_ack b s e HI) as (b' & E & _). eauto.
Qed.

Definition wr (s : sender) : N := written (sn_buf s).
Definition is_reset (s : sender) : Prop := sn_st s = SResetSent \/ sn_st s = SResetRcvd.

Definition frame_ok (c : N -> Z) (s : sender) (f : fframe) : Prop :=
  match f with
  | FrS off len fin d =>
    d = slice c off len /\ off + len <= wr s /\
    (fin = true -> off + len = wr s /\ sn_shutcalled s = true /\ past_fin s) /\
    (len = 0 -> fin = true)
  | FrR err final => final <= wr s /\ is_reset s
  | FrStop _ => True
  end.

(* [P]: the frames this flow has put on the wire so far *)
Definition SI (c : N -> Z) (s : sender) (P : list fframe) : Prop :=
  sb_ok (sn_buf s) /\ (forall f, In f P -> frame_ok c s f) /\
  (sn_shutw s = true -> sn_shutcalled s = true) /\ (sn_st s = SDataSent -> sn_shutcalled s = true).

Definition RI (c : N -> Z) (r : recver) (W : N) (pf sc : Prop) (P : list fframe) : Prop :=
  RB.Inv c (rc_buf r) /\ largest (rc_buf r) <= W /\
  rc_got r = slice c 0 (nread (rc_buf r)) /\
  (match rc_st r with
   | RSizeKnown f => f = W /\ pf /\ sc
   | RDataRcvd f => f = W /\ pf /\ sc /\ nread (rc_buf r) + available (rc_buf r) = f
   | RDataRead => nread (rc_buf r) = W /\ pf /\ sc
   | _ => True
   end) /\
  (rc_eos r = true -> rc_st r = RDataRead) /\
  ((rc_st r = RResetRcvd \/ rc_st r = RResetRead) -> exists err final, In (FrR err final) P).

Definition FI (c : N -> Z) (fl : flow) (P : list fframe) : Prop :=
  SI c (fl_snd fl) P /\
  RI c (fl_rcv fl) (wr (fl_snd fl)) (past_fin (fl_snd fl)) (sn_shutcalled (fl_snd fl) = true) P.

Ltac sn_simpl := cbn [sn_st sn_buf sn_fin sn_shutw sn_flushw sn_writew sn_wakes sn_inset sn_shutcalled
                      snd_set_buf snd_set_st snd_set_fin to_data_sent wr] in *.

(* the sender only moves forward: Ready and Sending, then DataSent, then DataRcvd or the reset states *)
Definition rank (st : sstate) : N :=
  match st with SReady | SSending => 0 | SDataSent => 1 | SDataRcvd => 2 | SResetSent | SResetRcvd => 3 end.

Lemma past_fin_rank s : past_fin s <-> 1 <= rank (sn_st s).
Proof.
  unfold past_fin. destruct (sn_st s); cbn [rank]; (split; [intros [A B]|intro H; split]); congruence || lia.
Qed.

Lemma is_reset_rank s : is_reset s <-> 3 <= rank (sn_st s).
Proof.
  unfold is_reset. destruct (sn_st s); cbn [rank];
    (split; [intros [A|A]; discriminate A || lia|intro H; first [left; reflexivity|right; reflexivity|lia]]).
Qed.

Definition snd_mono (s s' : sender) : Prop :=
  rank (sn_st s) <= rank (sn_st s') /\ wr s <= wr s' /\ (past_fin s -> wr s' = wr s) /\
  (sn_shutcalled s = true -> sn_shutcalled s' = true).

Definition snd_step (c : N -> Z) (s : sender) (P : list fframe) (s' : sender) (fs : list fframe) : Prop :=
  SI c s' (P ++ fs) /\ snd_mono s s'.

Lemma snd_step_intro c s P s' fs :
  SI c s P -> snd_mono s s' -> sb_ok (sn_buf s') ->
  (sn_shutw s' = true \/ sn_st s' = SDataSent -> sn_shutcalled s' = true) ->
  (forall f, In f fs -> frame_ok c s' f) -> snd_step c s P s' fs.
Proof.
  intros (_ & HF & _) M Hok Hsh Hfs. split; [|exact M]. destruct M as (M1 & M2 & M3 & M4).
  split; [exact Hok|]. split; [|split; auto].
  intros f Hin. apply in_app_or in Hin. destruct Hin as [Hin|Hin]; [|exact (Hfs f Hin)].
  specialize (HF f Hin). destruct f as [off len fin d|err final|err]; cbn [frame_ok] in *.
  - destruct HF as (F1 & F2 & F3 & F4). split; [exact F1|]. split; [exact (N.le_trans _ _ _ F2 M2)|]. split; [|exact F4].
    intros Hf. destruct (F3 Hf) as (G1 & G2 & G3). rewrite (M3 G3).
    split; [exact G1|]. split; [auto|]. apply past_fin_rank. apply past_fin_rank in G3. exact (N.le_trans _ _ _ G3 M1).
  - destruct HF as [F1 F2]. split; [exact (N.le_trans _ _ _ F1 M2)|].
    apply is_reset_rank. apply is_reset_rank in F2. exact (N.le_trans _ _ _ F2 M1).
  - exact I.
Qed.

Lemma snd_step_keep c s P s' fs :
  SI c s P -> sb_ok (sn_buf s') -> wr s' = wr s -> rank (sn_st s) <= rank (sn_st s') ->
  (sn_shutcalled s = true -> sn_shutcalled s' = true) ->
  (sn_shutw s' = true \/ sn_st s' = SDataSent -> sn_shutcalled s' = true) ->
  (forall f, In f fs -> frame_ok c s' f) -> snd_step c s P s' fs.
Proof.
  intros HS Hok Hw Hr Hsc Hsh Hfs. apply (snd_step_intro c s); try assumption.
  split; [exact Hr|]. split; [rewrite Hw; apply N.le_refl|]. split; [intros _; exact Hw|exact Hsc].
Qed.

Lemma snd_step_flags c s P s' fs :
  SI c s P -> sb_ok (sn_buf s') -> wr s' = wr s -> rank (sn_st s) <= rank (sn_st s') ->
  sn_shutw s' = sn_shutw s -> sn_shutcalled s' = sn_shutcalled s ->
  (sn_st s' = SDataSent -> sn_st s = SDataSent \/ sn_shutw s = true) ->
  (forall f, In f fs -> frame_ok c s' f) -> snd_step c s P s' fs.
Proof.
  intros HS Hok Hw Hr E1 E2 Hds Hfs. pose proof HS as (_ & _ & H3 & H4).
  apply snd_step_keep; try assumption; rewrite E2; [auto|].
  intros [H|H]; [apply H3; congruence|destruct (Hds H); auto].
Qed.

Lemma snd_step_same c s P s' :
  SI c s P -> sn_st s' = sn_st s -> sn_buf s' = sn_buf s ->
  sn_shutw s' = sn_shutw s -> sn_shutcalled s' = sn_shutcalled s -> snd_step c s P s' [].
Proof.
  intros HS E1 E2 E3 E4. apply snd_step_flags; try assumption; unfold wr; rewrite ?E1, ?E2.
  - exact (proj1 HS).
  - reflexivity.
  - reflexivity.
  - auto.
  - intros f [].
Qed.

Lemma snd_step_refl c s P : SI c s P -> snd_step c s P s [].
Proof. intro HS. apply snd_step_same; auto. Qed.

Lemma step_write c s P n : SI c s P -> snd_step c s P (fst (snd_poll_write s n)) [].
Proof.
  intros HS. pose proof (snd_step_refl _ _ _ HS) as Refl. unfold snd_poll_write.
  destruct (sn_st s) eqn:Est; try exact Refl.
  all: destruct (sn_shutw s) eqn:Esh; [exact Refl|].
  all: destruct (negb _); cbn [fst]; [apply snd_step_same; sn_simpl; auto|].
  all: destruct (write (sn_buf s) n) as [b|] eqn:Ew; [|exact Refl].
  all: destruct (sb_write _ _ _ (proj1 HS) Ew) as (Hok' & Hw & _); cbn [fst].
  (* the only operation that grows the written length, and only before the FIN *)
  all: apply (snd_step_intro c s); sn_simpl; [exact HS| |exact Hok'|intros [H|H]; congruence|intros f []].
  all: split; [reflexivity|]; unfold wr; sn_simpl; split; [rewrite Hw; apply N.le_add_r|]; split; [|auto].
  all: intros [A B]; congruence.
Qed.

Lemma step_flush c s P : SI c s P -> snd_step c s P (fst (snd_poll_flush s)) [].
Proof.
  intros HS. pose proof (snd_step_refl _ _ _ HS) as Refl. unfold snd_poll_flush.
  destruct (sn_st s) eqn:Est; try destruct (is_all_rcvd (sn_buf s)); cbn [fst];
    try exact Refl; apply snd_step_same; sn_simpl; auto.
Qed.

Lemma step_shutdown c s P : SI c s P -> snd_step c s P (fst (snd_poll_shutdown s)) [].
Proof.
  intros HS. pose proof (snd_step_refl _ _ _ HS) as Refl. unfold snd_poll_shutdown.
  destruct (sn_st s) eqn:Est; cbn [fst]; try exact Refl.
  all: apply snd_step_keep; sn_simpl; auto; [exact (proj1 HS)|rewrite Est; reflexivity|intros f []].
Qed.

(* Writer::cancel and Outgoing::be_stopped: to ResetSent, with a RESET_STREAM frame *)
Definition reset_frame (err : N) (f : option N) : list fframe :=
  match f with Some fs => [FrR err fs] | None => [] end.

Lemma snd_step_reset c s P s' err final :
  SI c s P -> sn_st s' = SResetSent -> sn_buf s' = sn_buf s -> sn_shutw s' = false ->
  sn_shutcalled s' = sn_shutcalled s -> final <= wr s -> snd_step c s P s' [FrR err final].
Proof.
  intros HS E1 E2 E3 E4 Hle.
  apply snd_step_keep; unfold wr; rewrite ?E1, ?E2, ?E3, ?E4; auto.
  - exact (proj1 HS).
  - destruct (sn_st s); discriminate.
  - intros [H|H]; discriminate H.
  - intros f [<-|[]]. split; [unfold wr; rewrite E2; exact Hle|left; exact E1].
Qed.

Lemma step_cancel c s P err :
  SI c s P -> snd_step c s P (fst (snd_cancel s)) (reset_frame err (snd (snd_cancel s))).
Proof.
  intros HS. pose proof (sb_sent_le _ (proj1 HS)) as Hle. unfold snd_cancel.
  destruct (sn_st s); cbn [fst snd reset_frame]; try exact (snd_step_refl _ _ _ HS);
    apply snd_step_reset; auto.
Qed.

Lemma step_be_stopped c s P err :
  SI c s P -> snd_step c s P (fst (snd_be_stopped s)) (reset_frame err (snd (snd_be_stopped s))).
Proof.
  intros HS. pose proof (sb_sent_le _ (proj1 HS)) as Hle. unfold snd_be_stopped.
  destruct (sn_st s); cbn [fst snd reset_frame]; try exact (snd_step_refl _ _ _ HS);
    apply snd_step_reset; auto. apply N.le_refl.
Qed.

Lemma step_reset_acked c s P : SI c s P -> snd_step c s P (fst (snd_on_reset_acked s)) [].
Proof.
  intros HS. unfold snd_on_reset_acked.
  destruct (sn_st s) eqn:Est; cbn [fst]; try exact (snd_step_refl _ _ _ HS).
  all: apply snd_step_flags; sn_simpl; auto; [exact (proj1 HS)|rewrite Est; reflexivity|discriminate|intros f []].
Qed.

Definition pick_frame (p : option pickd) : list fframe :=
  match p with Some k => [FrS (pk_start k) (pk_end k - pk_start k) (pk_eos k) (pk_data k)] | None => [] end.

Lemma frame_ok_data c s st e fr fin d :
  d = slice c st (e - st) -> st < e -> e <= wr s ->
  (fin = true -> e = wr s /\ sn_shutcalled s = true /\ past_fin s) ->
  forall f, In f (pick_frame (Some (mkpick st e fr fin d))) -> frame_ok c s f.
Proof.
  intros Hd Hlt Hle Hf f [<-|[]]. cbn [frame_ok pk_start pk_end pk_eos pk_data].
  replace (st + (e - st)) with e by lia. split; [exact Hd|]. split; [exact Hle|]. split; [exact Hf|lia].
Qed.

Lemma frame_ok_fin c s x fr :
  x = wr s -> sn_shutcalled s = true -> past_fin s ->
  forall f, In f (pick_frame (Some (mkpick x x fr true []))) -> frame_ok c s f.
Proof.
  intros -> Hsc Hpf f [<-|[]]. cbn [frame_ok pk_start pk_end pk_eos pk_data].
  rewrite N.sub_diag, N.add_0_r. split; [reflexivity|]. split; [apply N.le_refl|]. split; auto.
Qed.

Definition early (s : sender) : Prop := sn_st s = SReady \/ sn_st s = SSending.

Lemma early_rank s n : early s -> rank (sn_st s) <= n.
Proof. intros [E|E]; rewrite E; apply N.le_0_l. Qed.

(* Outgoing::try_load_data_into by outcome.  Ready and Sending run the same code and end in Sending, or in
   DataSent when the FIN goes out, with the last data ([tl_data] with [eos]) or alone ([tl_fin]).  DataSent
   retransmits ([tl_re_data]) and repeats a FIN reported lost ([tl_re_fin]).  Nothing goes out when the state is
   past DataSent ([tl_off]) or when the buffer offers nothing and no FIN is due, or none fits the packet
   ([tl_idle], [tl_re_idle]). *)
Inductive try_load_out (c : N -> Z) (s : sender) (pred : N -> option N) (credit : N) : sender -> option pickd -> Prop :=
| tl_off : ~ early s -> sn_st s <> SDataSent -> try_load_out c s pred credit s None
| tl_idle :
    early s ->
    match pick_up c (sn_buf s) pred credit with
    | UpOk _ _ _ _ _ => False
    | UpErr _ _ _ => sn_shutw s && (written (sn_buf s) =? sent (sn_buf s)) = true -> pred (sent (sn_buf s)) = None
    | UpPV => True
    end ->
    try_load_out c s pred credit (snd_set_st s SSending) None
| tl_data b' st e fr d :
    early s -> pick_up c (sn_buf s) pred credit = UpOk b' st e fr d ->
    let eos := sn_shutw s && (e =? written (sn_buf s)) in
    try_load_out c s pred credit
      (if eos then to_data_sent (snd_set_st s SSending) b' else snd_set_buf (snd_set_st s SSending) b')
      (Some (mkpick st e fr eos d))
| tl_fin w f g a :
    early s -> pick_up c (sn_buf s) pred credit = UpErr w f g ->
    sn_shutw s = true -> written (sn_buf s) = sent (sn_buf s) -> pred (sent (sn_buf s)) = Some a ->
    try_load_out c s pred credit (to_data_sent (snd_set_st s SSending) (sn_buf s))
      (Some (mkpick (sent (sn_buf s)) (sent (sn_buf s)) false true []))
| tl_re_idle :
    sn_st s = SDataSent ->
    match pick_up c (sn_buf s) pred credit with
    | UpOk _ _ _ _ _ => False
    | UpErr _ _ _ => sn_fin s <> FinLost
    | UpPV => True
    end ->
    try_load_out c s pred credit s None
| tl_re_data b' st e fr d :
    sn_st s = SDataSent -> pick_up c (sn_buf s) pred credit = UpOk b' st e fr d ->
    try_load_out c s pred credit (snd_set_buf s b') (Some (mkpick st e fr (e =? written (sn_buf s)) d))
| tl_re_fin w f g :
    sn_st s = SDataSent -> pick_up c (sn_buf s) pred credit = UpErr w f g -> sn_fin s = FinLost ->
    try_load_out c s pred credit (snd_set_fin s FinSent)
      (Some (mkpick (written (sn_buf s)) (written (sn_buf s)) false true [])).

Lemma try_load_spec c s pred credit :
  try_load_out c s pred credit (fst (snd_try_load c s pred credit)) (snd (snd_try_load c s pred credit)).
Proof.
  unfold snd_try_load. destruct (sn_st s) eqn:Est.
  4-6: cbn [fst snd]; apply tl_off; [intros [H|H]; congruence|congruence].
  1,2: assert (He : early s) by (unfold early; rewrite Est; auto).
  1,2: destruct (pick_up c (sn_buf s) pred credit) as [b' st e fr d|w f g|] eqn:Ep;
    [exact (tl_data _ _ _ _ _ _ _ _ _ He Ep)| |apply tl_idle; [exact He|rewrite Ep; exact I]].
  1,2: destruct (sn_shutw s && (written (sn_buf s) =? sent (sn_buf s))) eqn:Ec;
    [|apply tl_idle; [exact He|rewrite Ep, Ec; discriminate]].
  1,2: destruct (pred (sent (sn_buf s))) as [a|] eqn:Ea; cbn [fst snd];
    [|apply tl_idle; [exact He|rewrite Ep; intros _; exact Ea]].
  1,2: apply andb_true_iff in Ec; destruct Ec as [Esh Ee]; apply N.eqb_eq in Ee;
    exact (tl_fin _ _ _ _ _ _ _ _ He Ep Esh Ee Ea).
  destruct (pick_up c (sn_buf s) pred credit) as [b' st e fr d|w f g|] eqn:Ep.
  - exact (tl_re_data _ _ _ _ _ _ _ _ _ Est Ep).
  - destruct (sn_fin s) eqn:Ef; cbn [fst snd]; try (apply tl_re_idle; [exact Est|rewrite Ep, Ef; discriminate]).
    exact (tl_re_fin _ _ _ _ _ _ _ Est Ep Ef).
  - cbn [fst snd]. apply tl_re_idle; [exact Est|rewrite Ep; exact I].
Qed.

Lemma step_try c s P pred credit :
  SI c s P -> pred_pos pred ->
  snd_step c s P (fst (snd_try_load c s pred credit)) (pick_frame (snd (snd_try_load c s pred credit))).
Proof.
  intros HS Hp. pose proof HS as (Hok & _ & H3 & H4). pose proof (snd_step_refl _ _ _ HS) as Refl.
  (* every outcome keeps the written length and both shutdown flags *)
  assert (Go : forall st' b' fi ww p1, sb_ok b' -> written b' = wr s -> rank (sn_st s) <= rank st' ->
            (st' = SDataSent -> sn_shutcalled s = true) ->
            let s1 := mksnd st' b' fi (sn_shutw s) (sn_flushw s) ww (sn_wakes s) (sn_inset s) (sn_shutcalled s) in
            (forall f, In f (pick_frame p1) -> frame_ok c s1 f) -> snd_step c s P s1 (pick_frame p1)).
  { intros st' b' fi ww p1 G1 G2 G3 G4 s1 G5. apply snd_step_keep; auto. intros [H|H]; auto. }
  destruct (try_load_spec c s pred credit) as [_ _|He _|b' st e fr d He Ep eos|w f g a He Ep Esh Ee _|_ _|b' st e fr d Est Ep|w f g Est Ep _].
  - exact Refl.
  - apply (Go SSending _ _ _ None); [exact Hok|reflexivity|exact (early_rank _ _ He)|discriminate|intros f []].
  - destruct (sb_pick _ _ _ _ _ _ _ _ _ Hok Hp Ep) as (Hok' & Hw & _ & _ & Hse & Hew & Hd). rewrite <- Hw in Hew.
    subst eos. destruct (sn_shutw s && (e =? written (sn_buf s))) eqn:Eeos.
    + apply andb_true_iff in Eeos. destruct Eeos as [Esh Ee]. apply N.eqb_eq in Ee. rewrite <- Hw in Ee.
      apply (Go SDataSent); [exact Hok'|exact Hw|exact (early_rank _ _ He)|auto|].
      apply frame_ok_data; [exact Hd|exact Hse|exact Hew|]. intros _. split; [exact Ee|]. split; [auto|split; discriminate].
    + apply (Go SSending); [exact Hok'|exact Hw|exact (early_rank _ _ He)|discriminate|].
      apply frame_ok_data; [exact Hd|exact Hse|exact Hew|discriminate].
  - apply (Go SDataSent); [exact Hok|reflexivity|exact (early_rank _ _ He)|auto|].
    apply frame_ok_fin; [symmetry; exact Ee|auto|split; discriminate].
  - exact Refl.
  - destruct (sb_pick _ _ _ _ _ _ _ _ _ Hok Hp Ep) as (Hok' & Hw & _ & _ & Hse & Hew & Hd). rewrite <- Hw in Hew.
    apply (Go (sn_st s)); [exact Hok'|exact Hw|apply N.le_refl|auto|].
    apply frame_ok_data; [exact Hd|exact Hse|exact Hew|]. intro Ee. apply N.eqb_eq in Ee. rewrite <- Hw in Ee.
    split; [exact Ee|]. split; [auto|unfold past_fin; sn_simpl; rewrite Est; split; discriminate].
  - apply (Go (sn_st s)); [exact Hok|reflexivity|apply N.le_refl|auto|].
    apply frame_ok_fin; [reflexivity|auto|unfold past_fin; sn_simpl; rewrite Est; split; discriminate].
Qed.

Lemma step_acked c s P off len fin : SI c s P -> snd_step c s P (fst (snd_on_acked s off len fin)) [].
Proof.
  intros HS. pose proof (snd_step_refl _ _ _ HS) as Refl. unfold snd_on_acked.
  destruct (on_data_acked (sn_buf s) off (off + len)) as [b|] eqn:Eb; [|destruct (sn_st s); exact Refl].
  destruct (sb_ack _ _ _ _ (proj1 HS) Eb) as (Hb & Hw & _).
  destruct (sn_st s) eqn:Est; try exact Refl.
  - destruct (is_all_rcvd b && sn_flushw s); cbn [fst];
      apply snd_step_flags; sn_simpl; auto; try (rewrite Est; reflexivity); try discriminate; intros f [].
  - destruct (is_all_rcvd b && _); cbn [fst].
    + (* the FIN and every byte acknowledged: DataRcvd, the wakers are woken and dropped *)
      apply snd_step_keep; sn_simpl; auto; [rewrite Est; discriminate|intros [H|H]; discriminate H|intros f []].
    + apply snd_step_flags; sn_simpl; auto; [rewrite Est; reflexivity|intros f []].
Qed.

Lemma step_lost c s P off len fin : SI c s P -> snd_step c s P (fst (snd_may_loss s off len fin)) [].
Proof.
  intros HS. pose proof (snd_step_refl _ _ _ HS) as Refl. unfold snd_may_loss.
  destruct (may_loss_data (sn_buf s) off (off + len)) as [b|] eqn:Eb.
  - destruct (sb_loss _ _ _ _ (proj1 HS) Eb) as (Hb & Hw & _).
    destruct (sn_st s) eqn:Est; cbn [fst]; try exact Refl;
      apply snd_step_flags; sn_simpl; auto; try (rewrite Est; reflexivity); intros f [].
  - (* at most the FIN is marked lost, which [SI] does not read *)
    destruct (sn_st s); exact Refl.
Qed.

Ltac rc_simpl := cbn [rc_st rc_buf rc_largest rc_maxsd rc_readw rc_wakes rc_stopped rc_inset rc_got rc_eos with_read rc_wake] in *.

Lemma RI_same c r r' W pf sc P :
  rc_st r' = rc_st r -> rc_buf r' = rc_buf r -> rc_got r' = rc_got r -> rc_eos r' = rc_eos r ->
  RI c r W pf sc P -> RI c r' W pf sc P.
Proof. unfold RI. intros -> -> -> ->. auto. Qed.

Lemma all_rcvd_eq b f : all_rcvd b f = true -> nread b + available b = f.
Proof. unfold all_rcvd. apply N.eqb_eq. Qed.

Lemma step_recv_data c r W (pf sc : Prop) P off d fin :
  RI c r W pf sc P ->
  d = slice c off (lenN d) -> off + lenN d <= W -> (fin = true -> off + lenN d = W /\ pf /\ sc) ->
  match rc_recv_data r off d fin with inl (r', _) => RI c r' W pf sc P | inr _ => True end.
Proof.
  intros HR Hd Hle Hfin. pose proof HR as (R1 & R2 & R3 & R4 & R5 & R6). unfold rc_recv_data.
  destruct (recv (rc_buf r) off d) as [b' fr] eqn:Er. rewrite Hd in Er.
  destruct (RB.recv_spec _ _ _ _ _ _ R1 Er) as (Q1 & Q2 & _ & Q4 & _).
  assert (Q3 : largest b' <= W) by (rewrite Q4; destruct (lenN d =? 0); lia).
  (* the new buffer, in a state in which the stream is still being received; [RI] does not read the other fields *)
  assert (Fill : forall st' lg ms rw wk sp ins,
            rc_st r <> RDataRead ->
            match st' with
            | RRecv => True
            | RSizeKnown f => f = W /\ pf /\ sc
            | RDataRcvd f => f = W /\ pf /\ sc /\ nread b' + available b' = f
            | _ => False
            end ->
            RI c (mkrcv st' b' lg ms rw wk sp ins (rc_got r) (rc_eos r)) W pf sc P).
  { intros st' lg ms rw wk sp ins Hn Hst. unfold RI; cbn [rc_st rc_buf rc_got rc_eos].
    split; [exact Q1|]. split; [exact Q3|]. split; [rewrite Q2; exact R3|].
    split; [destruct st'; first [exact Hst|exact I|destruct Hst]|].
    split; [intro H; destruct (Hn (R5 H))|]. intros [H|H]; rewrite H in Hst; destruct Hst. }
  destruct (rc_st r) eqn:Est; try exact HR.
  - destruct fin.
    + destruct (Hfin eq_refl) as (F1 & F2 & F3). cbn [rc_wake].
      destruct (_ <? _); [exact I|]. destruct (_ <? _); [exact I|].
      destruct (all_rcvd b' (off + lenN d)) eqn:Ea; apply Fill; try discriminate; auto.
      split; [exact F1|]. split; [exact F2|]. split; [exact F3|exact (all_rcvd_eq _ _ Ea)].
    + destruct (_ <? _); [exact I|].
      destruct (if is_readable b' then _ else _) as [rw wk]. apply Fill; [discriminate|exact I].
  - destruct R4 as (A1 & A2 & A3).
    destruct (_ <? _); [exact I|]. destruct (_ && _); [exact I|].
    destruct (if is_readable b' then _ else _) as [rw wk].
    destruct (all_rcvd b' final) eqn:Ea; cbn [rc_wake]; apply Fill; try discriminate; auto.
    split; [exact A1|]. split; [exact A2|]. split; [exact A3|exact (all_rcvd_eq _ _ Ea)].
Qed.

Lemma step_recv_reset c r W (pf sc : Prop) P final :
  RI c r W pf sc P -> (exists err, In (FrR err final) P) ->
  match rc_recv_reset r final with inl (r', _) => RI c r' W pf sc P | inr _ => True end.
Proof.
  intros HR [err Hin]. pose proof HR as (R1 & R2 & R3 & R4 & R5 & R6). unfold rc_recv_reset.
  assert (Go : forall rw wk, rc_st r <> RDataRead ->
            RI c (mkrcv RResetRcvd (rc_buf r) (rc_largest r) (rc_maxsd r) rw wk (rc_stopped r) false (rc_got r) (rc_eos r)) W pf sc P).
  { intros rw wk Hn. unfold RI; cbn [rc_st rc_buf rc_got rc_eos]. split; [exact R1|]. split; [exact R2|]. split; [exact R3|]. split; [exact I|].
    split; [intro H; destruct (Hn (R5 H))|intros _; eauto]. }
  destruct (rc_st r) eqn:Est; try exact HR.
  - destruct (_ <? _); [exact I|]. destruct (_ <? _); [exact I|]. cbn [rc_wake]. apply Go. discriminate.
  - destruct (negb _); [exact I|]. cbn [rc_wake]. apply Go. discriminate.
Qed.

Lemma drained c b : RB.Inv c b -> largest b <= nread b -> segs b = [].
Proof.
  intros (Hwf & _ & Hend) H. destruct (segs b) as [|s rest]; [reflexivity|exfalso].
  assert (Hin : In s (s :: rest)) by now left.
  (* a segment is not empty and starts at or after [nread], so it ends beyond [largest] *)
  destruct (RB.wf_In _ _ _ _ Hwf Hin) as [W1 W2]. specialize (Hend s Hin). pose proof (RB.s_end_eq s). lia.
Qed.

Lemma step_read c r W (pf sc : Prop) P room :
  RI c r W pf sc P -> RI c (fst (fst (rc_poll_read r room))) W pf sc P.
Proof.
  intros HR. pose proof HR as (R1 & R2 & R3 & R4 & R5 & R6). unfold rc_poll_read.
  destruct (try_read (rc_buf r) room) as [b' o] eqn:Et.
  destruct (RB.try_read_spec _ _ _ _ _ R1 Et) as (T1 & T2 & T3 & T4 & _ & T5).
  assert (T6 : lenN o = N.min room (available (rc_buf r))) by (rewrite T3; apply lenN_slice).
  (* a read of [o] that leaves the state [st']; the end is reported by an empty read into a non-empty buffer *)
  assert (Fill : forall st' ms rw,
            match st' with
            | RRecv => True
            | RSizeKnown f => f = W /\ pf /\ sc
            | RDataRcvd f => f = W /\ pf /\ sc /\ nread b' + available b' = f
            | RDataRead => nread b' = W /\ pf /\ sc
            | _ => False
            end ->
            (rc_eos r = true \/ lenN o = 0 /\ room <> 0 -> st' = RDataRead) ->
            RI c (with_read r st' b' ms rw o room) W pf sc P).
  { intros st' ms rw Hst He. unfold RI; cbn [rc_st rc_buf rc_got rc_eos with_read].
    split; [exact T1|]. split; [rewrite T4; exact R2|]. split; [|split; [destruct st'; exact Hst || exact I|split]].
    - rewrite R3, T3, T2. symmetry. apply (slice_app c 0).
    - intro H. apply He. apply orb_true_iff in H. destruct H as [H|H]; [left; exact H|right].
      apply andb_true_iff in H. destruct H as [H1 H2]. apply N.eqb_eq in H1. apply negb_true_iff, N.eqb_neq in H2. auto.
    - intros [H|H]; rewrite H in Hst; destruct Hst. }
  assert (Hne : is_readable (rc_buf r) = true -> lenN o = 0 -> room = 0).
  { rewrite (RB.is_readable_avail _ _ R1). intros Hr H. apply N.ltb_lt in Hr. lia. }
  destruct (rc_st r) eqn:Est; cbn [fst].
  1,2: destruct (is_readable (rc_buf r)) eqn:Erd; cbn [fst]; [|apply (RI_same c r); auto];
    apply Fill; [exact R4|intros [H|[H1 H2]]; [exact (R5 H)|destruct (H2 (Hne eq_refl H1))]].
  - (* DataRcvd: DataRead once the buffer is empty *)
    destruct R4 as (A1 & A2 & A3 & A4).
    destruct (segs b') as [|s0 rest0] eqn:Es; apply Fill.
    + assert (Ha : available b' = 0) by (unfold available; rewrite Es; cbn [contig_end]; apply N.sub_diag).
      rewrite Ha, N.add_0_r, A4, A1 in T5. split; [exact T5|split; assumption].
    + reflexivity.
    + split; [exact A1|]. split; [exact A2|]. split; [exact A3|]. rewrite T5. exact A4.
    + intros [H|[H1 H2]]; [exact (R5 H)|]. exfalso.
      assert (Hd : segs b' = []) by (apply (drained c); [exact T1|lia]).
      rewrite Es in Hd. discriminate Hd.
  - unfold RI; rc_simpl. rewrite app_nil_r.
    repeat (split; [assumption|]). split; [reflexivity|exact R6].
  - unfold RI; rc_simpl. repeat (split; [assumption|]).
    split; [intro H; discriminate (R5 H)|intros _; apply R6; left; reflexivity].
  - exact HR.
Qed.

Lemma step_stop c r W (pf sc : Prop) P : RI c r W pf sc P -> RI c (fst (rc_stop r)) W pf sc P.
Proof.
  intros HR. unfold rc_stop.
  destruct (rc_st r) eqn:Est; try destruct (rc_stopped r); cbn [fst]; apply (RI_same c r); auto.
Qed.

(* one flow against the adversarial channel: the channel only hands back what the flow itself put on the wire *)
Definition justified (P : list fframe) (o : fop) : Prop :=
  match o with
  | FDeliverS off d fin => exists len, In (FrS off len fin d) P
  | FDeliverR final => exists err, In (FrR err final) P
  | FAck off len fin | FLose off len fin => exists d, In (FrS off len fin d) P
  | FTry pred _ => pred_pos pred
  | _ => True
  end.

Lemma RI_mono c r W pf sc P W' (pf' sc' : Prop) P' :
  RI c r W pf sc P -> W <= W' -> (pf -> pf' /\ W' = W) -> (sc -> sc') -> incl P P' ->
  RI c r W' pf' sc' P'.
Proof.
  intros (R1 & R2 & R3 & R4 & R5 & R6) HW Hpf Hsc Hin.
  split; [exact R1|]. split; [exact (N.le_trans _ _ _ R2 HW)|]. split; [exact R3|]. split; [|split; [exact R5|]].
  - destruct (rc_st r); try exact I.
    + destruct R4 as (A & B & C). destruct (Hpf B) as [B' ->]. auto.
    + destruct R4 as (A & B & C & D). destruct (Hpf B) as [B' ->]. auto.
    + destruct R4 as (A & B & C). destruct (Hpf B) as [B' ->]. auto.
  - intros Hr. destruct (R6 Hr) as (e & f & Hf). exists e, f. apply Hin. exact Hf.
Qed.

Lemma FI_snd c fl P s' fs :
  FI c fl P -> snd_step c (fl_snd fl) P s' fs -> FI c (mkflow s' (fl_rcv fl)) (P ++ fs).
Proof.
  intros [_ HR] [HS' (M1 & M2 & M3 & M4)]. split; [exact HS'|]. cbn [fl_snd fl_rcv].
  eapply RI_mono; [exact HR|exact M2| |exact M4|apply incl_appl, incl_refl].
  intro Hp. split; [|exact (M3 Hp)]. apply past_fin_rank. apply past_fin_rank in Hp. exact (N.le_trans _ _ _ Hp M1).
Qed.

Lemma FI_rcv c fl P r' fs :
  FI c fl P -> (forall f, In f fs -> frame_ok c (fl_snd fl) f) ->
  RI c r' (wr (fl_snd fl)) (past_fin (fl_snd fl)) (sn_shutcalled (fl_snd fl) = true) P ->
  FI c (mkflow (fl_snd fl) r') (P ++ fs).
Proof.
  intros [(H1 & H2 & H34) _] Hf HR'. split; cbn [fl_snd fl_rcv].
  - split; [exact H1|]. split; [|exact H34]. intros f Hin. apply in_app_or in Hin. destruct Hin; auto.
  - eapply RI_mono; [exact HR'|apply N.le_refl|auto|auto|apply incl_appl, incl_refl].
Qed.

(* A flow operation is an operation of the sender or of the recver.  [snd_op]: the sender after it and the
   frames it puts on the wire; [None] when the operation is not the sender's, or is feedback that finds the
   sender outside DataStreams.output.  [rcv_op] likewise for the recver. *)
Definition snd_op (c : N -> Z) (s : sender) (o : fop) : option (sender * list fframe) :=
  match o with
  | FWrite n => Some (fst (snd_poll_write s n), [])
  | FFlush => Some (fst (snd_poll_flush s), [])
  | FShutdown => Some (fst (snd_poll_shutdown s), [])
  | FCancel err => Some (fst (snd_cancel s), reset_frame err (snd (snd_cancel s)))
  | FTry pred credit => Some (fst (snd_try_load c s pred credit), pick_frame (snd (snd_try_load c s pred credit)))
  | FDeliverStop err =>
    if sn_inset s then Some (fst (snd_be_stopped s), reset_frame err (snd (snd_be_stopped s))) else None
  | FAck off len fin => if sn_inset s then Some (fst (snd_on_acked s off len fin), []) else None
  | FAckReset => if sn_inset s then Some (fst (snd_on_reset_acked s), []) else None
  | FLose off len fin => if sn_inset s then Some (fst (snd_may_loss s off len fin), []) else None
  | _ => None
  end.

(* [flow_step] takes the recver out of the input set ([rc_inset]) before it hands it a RESET_STREAM frame,
   whether or not the frame is then accepted *)
Definition rc_leave (r : recver) : recver :=
  mkrcv (rc_st r) (rc_buf r) (rc_largest r) (rc_maxsd r) (rc_readw r) (rc_wakes r) (rc_stopped r) false (rc_got r) (rc_eos r).

Definition rcv_op (r : recver) (o : fop) : option (recver * list fframe) :=
  match o with
  | FRead room => Some (fst (fst (rc_poll_read r room)), [])
  | FStop err => Some (fst (rc_stop r), if snd (rc_stop r) then [FrStop err] else [])
  | FDeliverS off d fin =>
    if rc_inset r then match rc_recv_data r off d fin with inl (r', _) => Some (r', []) | inr _ => None end else None
  | FDeliverR final =>
    if rc_inset r
    then Some (match rc_recv_reset (rc_leave r) final with inl (r', _) => r' | inr _ => rc_leave r end, [])
    else None
  | _ => None
  end.

Lemma flow_step_split c fl o :
  fst (flow_step c fl o) =
  match snd_op c (fl_snd fl) o, rcv_op (fl_rcv fl) o with
  | Some (s', fs), _ => (mkflow s' (fl_rcv fl), fs)
  | None, Some (r', fs) => (mkflow (fl_snd fl) r', fs)
  | None, None => (fl, [])
  end.
Proof.
  unfold flow_step. destruct o; cbn [snd_op rcv_op].
  - destruct (snd_poll_write _ _). reflexivity.
  - destruct (snd_poll_flush _). reflexivity.
  - destruct (snd_poll_shutdown _). reflexivity.
  - destruct (snd_cancel _). reflexivity.
  - destruct (rc_poll_read _ _) as [[r' z] out]. reflexivity.
  - destruct (rc_stop _). reflexivity.
  - destruct (snd_try_load _ _ _ _). reflexivity.
  - destruct (rc_inset _); [|reflexivity]. destruct (rc_recv_data _ _ _ _) as [[r' fresh]|e]; reflexivity.
  - destruct (rc_inset _); [|reflexivity]. fold (rc_leave (fl_rcv fl)).
    destruct (rc_recv_reset _ _) as [[r' fresh]|e]; reflexivity.
  - destruct (sn_inset _); [|reflexivity]. destruct (snd_be_stopped _). reflexivity.
  - destruct (sn_inset _); [|reflexivity]. destruct (snd_on_acked _ _ _ _). reflexivity.
  - destruct (sn_inset _); [|reflexivity]. destruct (snd_on_reset_acked _). reflexivity.
  - destruct (sn_inset _); [|reflexivity]. destruct (snd_may_loss _ _ _ _). reflexivity.
Qed.

Lemma snd_op_step c s P o s' fs :
  SI c s P -> justified P o -> snd_op c s o = Some (s', fs) -> snd_step c s P s' fs.
Proof.
  intros HS Hj E.
  destruct o as [n| | |err|room|err|pred credit|off d fin|final|err|off len fin| |off len fin]; cbn [snd_op] in E; try discriminate E; try (destruct (sn_inset s); [|discriminate E]);
    injection E as <- <-.
  - exact (step_write c s P n HS).
  - exact (step_flush c s P HS).
  - exact (step_shutdown c s P HS).
  - exact (step_cancel c s P err HS).
  - exact (step_try c s P pred credit HS Hj).
  - exact (step_be_stopped c s P err HS).
  - exact (step_acked c s P off len fin HS).
  - exact (step_reset_acked c s P HS).
  - exact (step_lost c s P off len fin HS).
Qed.

Lemma rcv_op_step c fl P o r' fs :
  FI c fl P -> justified P o -> rcv_op (fl_rcv fl) o = Some (r', fs) ->
  RI c r' (wr (fl_snd fl)) (past_fin (fl_snd fl)) (sn_shutcalled (fl_snd fl) = true) P /\
  forall f, In f fs -> frame_ok c (fl_snd fl) f.
Proof.
  intros [HS HR] Hj E.
  destruct o as [n| | |err|room|err|pred credit|off d fin|final|err|off len fin| |off len fin]; cbn [rcv_op justified] in E, Hj; try discriminate E; try (destruct (rc_inset (fl_rcv fl)); [|discriminate E]).
  - injection E as <- <-. split; [apply step_read; exact HR|intros f []].
  - injection E as <- <-. split; [apply step_stop; exact HR|].
    intros f Hin. destruct (snd (rc_stop _)); [destruct Hin as [<-|[]]; exact I|destruct Hin].
  - (* the delivered frame is one of the flow's own, so it carries written bytes *)
    destruct Hj as [len Hin]. destruct (proj1 (proj2 HS) _ Hin) as (F1 & F2 & F3 & _).
    assert (Hl : lenN d = len) by (rewrite F1; apply lenN_slice). rewrite <- Hl in *.
    assert (F3' : fin = true -> off + lenN d = wr (fl_snd fl) /\ past_fin (fl_snd fl) /\ sn_shutcalled (fl_snd fl) = true)
      by (intro Hf; destruct (F3 Hf) as (G1 & G2 & G3); auto).
    pose proof (step_recv_data _ _ _ _ _ _ _ _ _ HR F1 F2 F3') as H.
    destruct (rc_recv_data _ _ _ _) as [[r1 fresh]|e]; [|discriminate E].
    injection E as <- <-. split; [exact H|intros f []].
  - (* leaving DataStreams.input changes nothing [RI] reads *)
    injection E as <- <-. split; [|intros f []].
    pose proof (step_recv_reset c (rc_leave (fl_rcv fl)) _ _ _ _ final HR Hj) as H.
    destruct (rc_recv_reset _ _) as [[r1 fresh]|e]; [exact H|exact HR].
Qed.

Lemma flow_step_inv c fl P o fl' new out :
  FI c fl P -> justified P o -> flow_step c fl o = (fl', new, out) -> FI c fl' (P ++ new).
Proof.
  intros HFI Hj E. pose proof (flow_step_split c fl o) as E1. rewrite E in E1. cbn [fst] in E1.
  destruct (snd_op c (fl_snd fl) o) as [[s' fs]|] eqn:Es.
  - injection E1 as -> ->. exact (FI_snd _ _ _ _ _ HFI (snd_op_step _ _ _ _ _ _ (proj1 HFI) Hj Es)).
  - destruct (rcv_op (fl_rcv fl) o) as [[r' fs]|] eqn:Er; injection E1 as -> ->.
    + destruct (rcv_op_step _ _ _ _ _ _ HFI Hj Er) as [HR' Hfs]. exact (FI_rcv _ _ _ _ _ HFI Hfs HR').
    + rewrite app_nil_r. exact HFI.
Qed.

Lemma FI_init c w : FI c (new_flow w) [].
Proof.
  split; cbn [new_flow fl_snd fl_rcv].
  - split; [apply sb_ok_init|]. split; [intros f []|]. split; cbn; discriminate.
  - unfold RI, new_recver; rc_simpl. split; [apply RB.Inv_empty|]. split; [cbn; lia|]. split; [reflexivity|].
    split; [exact I|]. split; [discriminate|intros [H|H]; discriminate].
Qed.

(* every state one flow can reach: any interleaving of application calls, emissions with any
   capacity / tokens / credit, deliveries, acknowledgements and loss reports of any frame the flow
   ever emitted, in any order, any number of times *)
Inductive flow_reach (c : N -> Z) : flow -> list fframe -> Prop :=
| fr_init w : flow_reach c (new_flow w) []
| fr_step fl P o fl' new out :
    flow_reach c fl P -> justified P o ->
    flow_step c fl o = (fl', new, out) -> flow_reach c fl' (P ++ new).

Lemma reach_FI c fl P : flow_reach c fl P -> FI c fl P.
Proof. induction 1; [apply FI_init|eapply flow_step_inv; eauto]. Qed.

Definition written_bytes (c : N -> Z) (fl : flow) : list Z := slice c 0 (wr (fl_snd fl)).
Definition is_prefix (a b : list Z) : Prop := exists t, b = a ++ t.

(* No lost wake-up on the reading side of a flow (liveness as the application sees it).

   A task that called Reader::poll_read and was told Pending runs again only when the waker it left
   behind ([rc_readw]) is woken.  So "every written byte eventually becomes readable" is worth something
   to the application only if a parked reader never coexists with a stream on which poll_read would
   answer Ready.  [NoLost] says exactly that, and is inductive over EVERY flow operation (no hypothesis on
   the channel at all); [wake_step] adds that the waker is never dropped silently: while the reader is
   parked each operation either leaves it parked or wakes it exactly once.  One analysis of each of the
   four recver operations gives both. *)
Definition open_r (r : recver) : Prop := rc_st r = RRecv \/ exists f, rc_st r = RSizeKnown f.

Definition NoLost (r : recver) : Prop := rc_readw r = true -> open_r r /\ is_readable (rc_buf r) = false.

Definition wake_step (r r' : recver) : Prop :=
  (NoLost r -> NoLost r') /\
  (rc_wakes r' = rc_wakes r /\ (rc_readw r = true -> rc_readw r' = true) \/
   rc_readw r' = false /\ rc_wakes r' = rc_wakes r + b2n (rc_readw r)).

Lemma wake_woken r r' :
  rc_readw r' = false -> rc_wakes r' = rc_wakes r + b2n (rc_readw r) -> wake_step r r'.
Proof. intros A B. split; [intros _ W; congruence|right; split; assumption]. Qed.

Lemma wake_same r r' :
  rc_wakes r' = rc_wakes r -> rc_readw r' = rc_readw r -> rc_st r' = rc_st r -> rc_buf r' = rc_buf r ->
  wake_step r r'.
Proof.
  intros B A C D. split; [|left; split; [exact B|congruence]].
  unfold NoLost, open_r. rewrite A, C, D. exact (fun H => H).
Qed.

Lemma wake_quiet r r' :
  rc_wakes r' = rc_wakes r -> (rc_readw r = true -> rc_readw r' = true) ->
  open_r r' -> is_readable (rc_buf r') = false -> wake_step r r'.
Proof. intros A B C D. split; [intros _ _; split; assumption|left; split; assumption]. Qed.

(* a poll that answers Ready: by [NoLost] no waker was parked, and none is now *)
Lemma wake_ready r r' :
  rc_wakes r' = rc_wakes r -> rc_readw r' = rc_readw r ->
  (open_r r -> is_readable (rc_buf r) = true) -> wake_step r r'.
Proof.
  intros B A C. split; [|left; split; [exact B|congruence]].
  intros H W. rewrite A in W. destruct (H W) as [S R]. rewrite (C S) in R. discriminate R.
Qed.

Lemma wake_refl r : wake_step r r.
Proof. apply wake_same; reflexivity. Qed.

Lemma wake_recv_data r off d fin :
  match rc_recv_data r off d fin with inl (r', _) => wake_step r r' | inr _ => True end.
Proof.
  pose proof (wake_refl r) as Same. unfold rc_recv_data. destruct (recv (rc_buf r) off d) as [b' fr].
  destruct (rc_st r) as [|f|f| | |] eqn:St; try exact Same.
  - destruct fin.
    + rc_simpl. destruct (_ <? _); [exact I|]. destruct (_ <? _); [exact I|].
      destruct (all_rcvd b' _); apply wake_woken; reflexivity.
    + destruct (_ <? _); [exact I|].
      destruct (is_readable b') eqn:Rd; rc_simpl; [apply wake_woken; reflexivity|apply wake_quiet; unfold open_r; rc_simpl; auto].
  - destruct (_ <? _); [exact I|]. destruct (_ && _); [exact I|].
    destruct (is_readable b') eqn:Rd; rc_simpl; destruct (all_rcvd b' f).
    + apply wake_woken; rc_simpl; [reflexivity|apply N.add_0_r].
    + apply wake_woken; reflexivity.
    + apply wake_woken; reflexivity.
    + apply wake_quiet; unfold open_r; rc_simpl; eauto.
Qed.

Lemma wake_recv_reset r final :
  match rc_recv_reset r final with inl (r', _) => wake_step r r' | inr _ => True end.
Proof.
  pose proof (wake_refl r) as Same. unfold rc_recv_reset.
  destruct (rc_st r) as [|f|f| | |]; try exact Same.
  - destruct (_ <? _); [exact I|]. destruct (_ <? _); [exact I|]. rc_simpl. apply wake_woken; reflexivity.
  - destruct (negb _); [exact I|]. rc_simpl. apply wake_woken; reflexivity.
Qed.

Lemma wake_read r room : wake_step r (fst (fst (rc_poll_read r room))).
Proof.
  unfold rc_poll_read. destruct (try_read (rc_buf r) room) as [b' o].
  destruct (rc_st r) as [|f|f| | |] eqn:St; cbn [fst].
  1,2: destruct (is_readable (rc_buf r)) eqn:Rd; cbn [fst];
    [apply wake_ready; rc_simpl; auto|apply wake_quiet; unfold open_r; rc_simpl; eauto].
  1-3: apply wake_ready; rc_simpl; try reflexivity; intros [S|[f' S]]; congruence.
  apply wake_refl.
Qed.

Lemma wake_stop r : wake_step r (fst (rc_stop r)).
Proof.
  unfold rc_stop. destruct (rc_st r) eqn:St; try destruct (rc_stopped r); cbn [fst];
    apply wake_same; rc_simpl; auto.
Qed.

Lemma rcv_op_wake r o r' fs : rcv_op r o = Some (r', fs) -> wake_step r r'.
Proof.
  intro E. destruct o as [n| | |err|room|err|pred credit|off d fin|final|err|off len fin| |off len fin]; cbn [rcv_op] in E; try discriminate E; try (destruct (rc_inset r); [|discriminate E]).
  - injection E as <- _. apply wake_read.
  - injection E as <- _. apply wake_stop.
  - pose proof (wake_recv_data r off d fin) as H.
    destruct (rc_recv_data r off d fin) as [[r1 fresh]|e]; [|discriminate E]. injection E as <- _. exact H.
  - (* leaving DataStreams.input first changes nothing [wake_step] reads *)
    injection E as <- _. pose proof (wake_recv_reset (rc_leave r) final) as H.
    destruct (rc_recv_reset (rc_leave r) final) as [[r1 fresh]|e]; [exact H|apply wake_same; reflexivity].
Qed.

Lemma flow_step_wake c fl o fl' new out :
  flow_step c fl o = (fl', new, out) -> wake_step (fl_rcv fl) (fl_rcv fl').
Proof.
  intro E. pose proof (flow_step_split c fl o) as E1. rewrite E in E1. cbn [fst] in E1.
  destruct (snd_op c (fl_snd fl) o) as [[s' fs]|]; [injection E1 as -> _; apply wake_refl|].
  destruct (rcv_op (fl_rcv fl) o) as [[r' fs]|] eqn:Er; injection E1 as -> _;
    [exact (rcv_op_wake _ _ _ _ Er)|apply wake_refl].
Qed.

Lemma reach_nolost c fl P : flow_reach c fl P -> NoLost (fl_rcv fl).
Proof.
  induction 1 as [w|fl P o fl' new out _ IH _ E]; [intro W; discriminate W|].
  exact (proj1 (flow_step_wake _ _ _ _ _ _ E) IH).
Qed.
