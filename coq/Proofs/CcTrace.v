(* Trace-level form of "an acknowledged packet is never declared lost": once an accepted ACK frame
   covers a packet number that has been sent in a space, no later operation of any history
   reports that number lost in that space. *)
From Coq Require Import List ZArith Bool Lia.
From GQ Require Import Model.Pto Proofs.LossDetect Proofs.Pto.
Import ListNotations.
Local Open Scope Z_scope.

Definition NI (c : cc) (e pn : Z) : Prop :=
  noinfl pn (s_sent (c_sp c e)) /\ pn <= c_lastpn c e.

Lemma NI_moves {o c c' e pn} : moves o c c' -> NI c e pn -> NI c' e pn.
Proof.
  intros (_ & L & Q) (H1 & H2). specialize (L e). split; [|lia].
  intros q Hq Hpn. destruct (is_inflight q) eqn:Hi; [|reflexivity].
  destruct (Q e q Hq Hi) as [Hold|(Hnew & _)]; [now rewrite (H1 q Hold Hpn) in Hi|lia].
Qed.

Lemma NI_no_loss c ri o e pn : NI c e pn -> ~ In (e, pn) (o_lost (snd (cc_step c ri o))).
Proof.
  (* only an ACK and an expired timer report anything *)
  intros (H1 & _). apply (cc_step_cases (fun _ l _ => ~ In (e, pn) l)); cbn beta; auto.
  - intros e0 cev rs s r lost pers _ _ Ep Hin. destruct (in_report Hin) as (<- & Hl).
    destruct (ack_pass_states Ep) as (_ & _ & Q). now apply (Q pn Hl).
  - intros e0 s r lost pers _ _ Ed Hin. destruct (in_report Hin) as (<- & Hl).
    now apply (proj2 (detect_lost_states Ed) pn Hl).
Qed.

Lemma ack_establishes_NI c ri e cev rs pn :
  ack_ok rs = true -> in_ranges pn rs = true -> pn <= c_lastpn c e ->
  NI (fst (cc_step c ri (OpAck e cev rs))) e pn /\
  ~ In (e, pn) (o_lost (snd (cc_step c ri (OpAck e cev rs)))).
Proof.
  intros Hk Hr Hl. cbn [cc_step]. rewrite Hk.
  destruct (cc_on_ack c ri e (fst (hd (0, 0) rs)) cev rs) as [[c1 lost] pers] eqn:Ea.
  destruct (cc_on_ack_core Ea) as (s & r & Ep & (_ & B & _ & _ & L)).
  destruct (ack_pass_states Ep) as (_ & R & Q).
  cbn [fst snd o_lost]. split.
  - assert (N1 : NI c1 e pn).
    { split; [rewrite B; ccbn; unfold fset; rewrite Z.eqb_refl; now apply R|now rewrite L]. }
    destruct ((e =? 1) && c_server c1); [|exact N1]. exact (NI_moves (moves_discard ri 0 (moves_refl (OpDiscard 0) c1)) N1).
  - intro Hin. destruct (Q pn (proj2 (in_report Hin))) as (_ & Q2). congruence.
Qed.

Fixpoint run_from (c : cc) (l : list (rin * cc_op)) : list outcome :=
  match l with
  | [] => []
  | (ri, o) :: rest => snd (cc_step c ri o) :: run_from (fst (cc_step c ri o)) rest
  end.

Lemma NI_run c l e pn : NI c e pn -> Forall (fun out => ~ In (e, pn) (o_lost out)) (run_from c l).
Proof.
  revert c. induction l as [|[ri o] rest IH]; intros c H; cbn [run_from]; constructor.
  - now apply NI_no_loss.
  - exact (IH _ (NI_moves (step_moves c ri o) H)).
Qed.
