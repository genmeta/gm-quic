(* Histories: what one operation does to the two queues and, by composition, a whole run ([run_acts]); from it c19_whole and
   c19_reads_in_order: what is put on the wire is, in order, what the writer accepted, and what the application reads is,
   in order, what the incoming side accepted. *)
From Coq Require Import List NArith ZArith.
From GQ Require Import Lib.Base Model.Datagram Proofs.Datagram.
Import ListNotations.
Local Open Scope N_scope.

Definition fits_local (lm : N) (f : pframe) : bool :=
  match f with PDatagram wl d => negb (lm <? frame_hdr_size wl (lenN d) + lenN d) end.
Definition pf_payload (f : pframe) : list Z := match f with PDatagram _ d => d end.
(* the frames of a parsed packet that DatagramIncoming::recv_datagram queues *)
Definition pushed (lm : N) (fs : list pframe) : list (list Z) := map pf_payload (filter (fits_local lm) fs).
Definition frames (bs : list Z) : list pframe := snd (parse bs).

Definition arrivals1 (lm : N) (o : dg_op) (out : dg_out) : list (list Z) :=
  match o, out with
  | DLoad _ _, OLoad r (Some _) => pushed lm (frames (wire_bytes r))
  | DLoadAll _ _, OLoadAll rs _ (Some _) => pushed lm (frames (flat_map wire_bytes rs))
  | DRecvFrame wl d, ORecvFrame _ _ _ => pushed lm (frames (frame_bytes wl d))
  | _, _ => []
  end.
Definition reads1 (out : dg_out) : list (list Z) :=
  match out with ORead (ReadSome d) => [d] | _ => [] end.

Fixpoint arrivals (lm : N) (ops : list dg_op) (outs : list dg_out) : list (list Z) :=
  match ops, outs with
  | o :: ops', out :: outs' => arrivals1 lm o out ++ arrivals lm ops' outs'
  | _, _ => []
  end.
Fixpoint reads (outs : list dg_out) : list (list Z) :=
  match outs with out :: outs' => reads1 out ++ reads outs' | [] => [] end.

Lemma recv_all_acts : forall fs s, acts s (fst (recv_all s fs)) [] (pushed (local_max s) fs) [] [].
Proof.
  induction fs as [| [wl d] fs IH]; intro s; cbn [recv_all]; [apply acts_idle |].
  assert (A : acts s (fst (recv_datagram s wl d)) [] (pushed (local_max s) [PDatagram wl d]) [] []).
  { unfold recv_datagram, pushed. cbn [filter fits_local].
    destruct (rq s) as [q |] eqn:Eq.
    - (* open: a frame over the local maximum is refused, any other is appended *)
      destruct (local_max s <? _); cbn [fst negb map pf_payload]; [apply acts_idle |].
      repeat split; [| intros; apply qstep_idle]. cbn [rq]. rewrite Eq. reflexivity.
    - (* closed: nothing is taken from a closed queue, whatever is put *)
      repeat split; [| intros; apply qstep_idle]. cbn [fst]. rewrite Eq. reflexivity. }
  destruct (recv_datagram s wl d) as [s1 r]. specialize (IH s1). destruct (recv_all s1 fs) as [s2 rs]. cbn [fst] in *.
  pose proof (acts_trans _ _ _ _ _ _ _ _ _ _ _ A IH) as T. rewrite (proj1 A) in T. unfold pushed in *. cbn [filter] in *.
  destruct (fits_local (local_max s) (PDatagram wl d)); exact T.
Qed.

Lemma deliver_acts s bs : acts s (fst (deliver_bytes s bs)) [] (pushed (local_max s) (frames bs)) [] [].
Proof.
  unfold deliver_bytes, frames. destruct (parse bs) as [[ok npad] fs]. cbn [snd].
  pose proof (recv_all_acts fs s) as H. destruct (recv_all s fs) as [s' rs]. exact H.
Qed.

Lemma read_acts s : acts s (fst (read s)) (reads1 (ORead (snd (read s)))) [] [] [].
Proof.
  unfold read. destruct (local_max s =? 0); [apply acts_idle |]. destruct (rq s) as [[| d q1] |] eqn:Eq; try apply acts_idle.
  repeat split; [| intros; apply qstep_idle]. cbn [fst snd rq reads1]. rewrite Eq. exact (qstep_take [d] q1).
Qed.

Lemma dg_exec_acts s o s' out : dg_exec s o = (s', out) ->
  acts s s' (reads1 out) (arrivals1 (local_max s) o out) (wired1 out) (accepted1 o out).
Proof.
  destruct o as [d | rem dl | rem dl | wl d | | ]; cbn [dg_exec]; intro E.
  - pose proof (send_acts s d) as A. destruct (send s d) as [s1 r]. injection E as <- <-. exact A.
  - (* load, then deliver if asked to *)
    pose proof (load_acts s rem) as A. destruct (load s rem) as [s1 r]. cbn [fst snd] in A.
    assert (I : forall dv, acts s s1 (reads1 (OLoad r dv)) [] (wired1 (OLoad r dv)) []) by (intro dv; destruct r; exact A).
    destruct r as [ | | | wl npad d | site]; try destruct dl; try (injection E as <- <-; apply I).
    pose proof (acts_trans _ _ _ _ _ _ _ _ _ _ _ A (deliver_acts s1 (wire_bytes (LFrame wl npad d)))) as T.
    destruct (deliver_bytes s1 _) as [s2 dv]. injection E as <- <-. rewrite (proj1 A) in T. exact T.
  - pose proof (load_all_acts s rem) as A. destruct (load_all s rem) as [[s1 rs] last]. cbn [fst snd] in A.
    destruct rs as [| r rs']; try destruct dl; try (injection E as <- <-; exact A).
    pose proof (acts_trans _ _ _ _ _ _ _ _ _ _ _ A (deliver_acts s1 (flat_map wire_bytes (r :: rs')))) as T.
    destruct (deliver_bytes s1 _) as [s2 dv]. injection E as <- <-. rewrite (proj1 A), !app_nil_r in T. exact T.
  - pose proof (deliver_acts s (frame_bytes wl d)) as A.
    destruct (deliver_bytes s (frame_bytes wl d)) as [s2 [[ok npad] rs]]. injection E as <- <-. exact A.
  - pose proof (read_acts s) as A. destruct (read s) as [s1 r]. injection E as <- <-. exact A.
  - (* connection error: both queues are closed *)
    injection E as <- <-. repeat split; intros; apply qstep_close.
Qed.

Lemma run_acts : forall ops s s' outs, dg_execs s ops = (s', outs) ->
  acts s s' (reads outs) (arrivals (local_max s) ops outs) (wired outs) (accepted ops outs).
Proof.
  induction ops as [| o ops IH]; intros s s' outs E; cbn [dg_execs] in E.
  - injection E as <- <-. apply acts_idle.
  - destruct (dg_exec s o) as [s1 out] eqn:E1. destruct (dg_execs s1 ops) as [s2 outs2] eqn:E2. injection E as <- <-.
    pose proof (dg_exec_acts _ _ _ _ E1) as A. specialize (IH _ _ _ E2). rewrite (proj1 A) in IH.
    exact (acts_trans _ _ _ _ _ _ _ _ _ _ _ A IH).
Qed.
