(* Sequential histories of the anti-amplification counter (Model/Burst.v, the `aa` stream): what a segment and a burst
   hand to IO, the law of the counter that every operation obeys ([law], [aa_exec_effect], [gstep_effect]), and the
   invariant [Inv] (while NORMAL, credit + bytes handed to IO = 3 x bytes received) along histories without an operation
   of the known class.  p_c15_* are the trace theorems of Properties/C15.v, from any start state. *)
From Coq Require Import List NArith Bool Lia.
From GQ Require Import Model.Burst Proofs.AntiAmp.
Import ListNotations.
Local Open Scope N_scope.

Lemma balance_same a : st (fst (balance a)) = st a /\ credit (fst (balance a)) = credit a.
Proof.
  unfold balance. destruct (balance_of (st a) (credit a) (st a)) as [r w]. cbn [fst].
  destruct w; [rewrite wake_credit_st, wake_credit_credit |]; split; reflexivity.
Qed.

Lemma balance_res a :
  snd (balance a) =
    if st a =? 1 then BSome MAXU else if st a =? 2 then BNone
    else if st a =? 0 then (if credit a =? 0 then BErr else BSome (credit a)) else BPanic.
Proof.
  unfold balance, balance_of.
  destruct (st a =? 1); [reflexivity |]. destruct (st a =? 2); [reflexivity |].
  destruct (st a =? 0) eqn:E0; [| reflexivity]. destruct (credit a =? 0); reflexivity.
Qed.

Lemma assemble_le minpkt c buf want fl :
  let '(c', s) := assemble minpkt c buf want fl in
  s <= cl c /\ s <= buf /\ cl c' = cl c - s /\ (0 < s -> 0 < want).
Proof.
  unfold assemble, constrain, commit.
  destruct (N.ltb_spec 0 want) as [Hw | Hw]; cbn [andb].
  - destruct (minpkt <=? N.min (N.min buf (cl c)) (sq c)).
    + destruct (N.ltb_spec 0 (N.min want (N.min (N.min buf (cl c)) (sq c)))) as [Hs | Hs]; cbn [cl]; repeat split; lia.
    + rewrite N.ltb_irrefl. repeat split; lia.
  - rewrite N.ltb_irrefl. repeat split; lia.
Qed.

(* any number of packets written through one Constraints value - in flight or not - stay within its credit limit:
   every commit charges the credit *)
Lemma assemble_all_le minpkt ps : forall c buf,
  let '(c', s) := assemble_all minpkt c buf ps in
  s <= cl c /\ s <= buf /\ cl c' = cl c - s.
Proof.
  induction ps as [| p t IH]; intros c buf; cbn [assemble_all]; [repeat split; lia |].
  pose proof (assemble_le minpkt c buf (pk_want p) (pk_fl p)) as H1.
  destruct (assemble minpkt c buf (pk_want p) (pk_fl p)) as [c1 s1].
  specialize (IH c1 (buf - s1)). destruct (assemble_all minpkt c1 (buf - s1) t) as [c2 s2].
  destruct H1 as (A1 & A2 & A3 & _). destruct IH as (B1 & B2 & B3). repeat split; lia.
Qed.

Lemma load_segment_le minpkt c buf r n :
  load_segment minpkt (BSome c) buf r = SegOk n ->
  (sg_wi r = 0 \/ buf <= c) -> n <= c.
Proof.
  unfold load_segment. intros E Hk.
  pose proof (assemble_le minpkt (mkcons c (sg_quota r)) buf (sg_wi r) (pk_fl (sg_ini r))) as H1.
  destruct (assemble minpkt (mkcons c (sg_quota r)) buf (sg_wi r) (pk_fl (sg_ini r))) as [c1 s1].
  pose proof (assemble_all_le minpkt (sg_rest r) c1 (buf - s1)) as H2.
  destruct (assemble_all minpkt c1 (buf - s1) (sg_rest r)) as [c2 s2].
  cbn [cl] in H1. destruct H1 as (A1 & A2 & A3 & A4). destruct H2 as (B1 & B2 & B3).
  destruct (N.ltb_spec 0 s1) as [Hs1 | Hs1].
  - injection E as <-. destruct Hk as [Hk | Hk]; [specialize (A4 Hs1); lia | exact Hk].
  - destruct (0 <? s1 + s2); [| discriminate]. injection E as <-. lia.
Qed.

Record gst := mkg { ga : aa; gRv : N; gHv : N }.

Definition rcvd1 (o : aa_op) : N := match o with ARcvd n => n | _ => 0 end.

Definition handed1 (a : aa) (o : aa_op) (out : aa_out) : N :=
  match o, out with
  | AOnSent n, _ => n                   (* the caller reports n bytes as sent *)
  | ABurst _ _ _, XBurst bo => bo_sum bo
  | _, _ => 0
  end.

Definition over1 (a : aa) (o : aa_op) (out : aa_out) : bool :=
  match o, out with
  | AOnSent n, _ => (st a =? 0) && over_debit a n
  | ABurst _ _ _, XBurst bo => bo_over bo
  | _, _ => false
  end.

Definition gstep (minpkt : N) (g : gst) (o : aa_op) : gst * bool :=
  let '(a1, out) := aa_exec minpkt (ga g) o in
  let '(a2, _) := balance a1 in
  (mkg a2 (gRv g + rcvd1 o) (gHv g + handed1 (ga g) o out), over1 (ga g) o out).

(* all states reached, one per prefix, with the wrap flag of the op that led there *)
Fixpoint gtrace (minpkt : N) (g : gst) (ops : list aa_op) : list (gst * bool) :=
  match ops with
  | [] => []
  | o :: rest => let '(g', w) := gstep minpkt g o in (g', w) :: gtrace minpkt g' rest
  end.

Definition g0 : gst := mkg aa0 0 0.

(* the class of the known finding F19 (Appendix B), on the op and the state it is applied to *)
Definition known_class (a : aa) (o : aa_op) : bool :=
  (st a =? 0) &&
  match o with
  | AOnSent n => credit a <? n
  | ABurst mtu rsv segs =>
      (1 <? lenN segs) || (0 <? rsv) ||
      (existsb (fun r => 0 <? sg_wi r) segs && (credit a <? mtu - rsv))
  | _ => false
  end.

(* a history without an op of the known class, in which the credit counter itself cannot overflow and no bytes are
   reported as sent on an aborted path *)
Fixpoint clean (minpkt : N) (g : gst) (ops : list aa_op) : Prop :=
  match ops with
  | [] => True
  | o :: rest =>
      known_class (ga g) o = false /\ 3 * (gRv g + rcvd1 o) < W /\
      (st (ga g) = 2 -> match o with AOnSent n => n = 0 | _ => True end) /\
      clean minpkt (fst (gstep minpkt g o)) rest
  end.

Lemma load_segment_panic minpkt b buf r : load_segment minpkt b buf r = SegPanic -> b = BPanic.
Proof.
  destruct b as [ | c | | ]; try discriminate; [| reflexivity]. unfold load_segment.
  destruct (assemble _ _ _ _ _) as [c1 s1], (assemble_all _ _ _ _) as [c2 s2].
  destruct (0 <? s1); [discriminate |]. destruct (0 <? s1 + s2); discriminate.
Qed.

Lemma burst_loop_spec minpkt buf rsv segs : forall a lens a' lens' status,
  burst_loop minpkt a buf rsv segs lens = (a', lens', status) ->
  st a' = st a /\ credit a' = credit a /\ (st a = 0 -> status = 0 \/ lens' = []) /\ (st a = 2 -> lens' = lens).
Proof.
  induction segs as [| r rest IH]; intros a lens a' lens' status E; cbn [burst_loop] in E.
  - injection E as <- <- <-. auto.
  - pose proof (balance_same a) as [Bs Bc]. pose proof (balance_res a) as Br.
    destruct (balance a) as [a1 b]. cbn [fst snd] in *.
    destruct (load_segment minpkt b buf r) as [ | | n | ] eqn:El.
    1,2: injection E as <- <- <-; repeat split; auto; intros _; destruct lens; auto.
    + (* a datagram was assembled: the path is not aborted *)
      assert (H2 : st a <> 2) by (intro H2; rewrite H2 in Br; subst b; discriminate El).
      destruct (rsv + n <? last lens 0); [injection E as <- <- <-; repeat split; auto; intro; contradiction |].
      destruct (IH _ _ _ _ _ E) as (I1 & I2 & I3 & _). rewrite Bs in *. rewrite Bc in *.
      repeat split; auto. intro; contradiction.
    + (* balance() does not panic on NORMAL *)
      apply load_segment_panic in El. subst b. injection E as <- <- <-. repeat split; auto. intro H; rewrite H in Br.
      cbn in Br. destruct (credit a =? 0); discriminate.
Qed.

Lemma burst_effect minpkt a mtu rsv segs : let '(a', bo) := burst minpkt a mtu rsv segs in
  st a' = st a /\
  (st a = 0 -> credit a' = credit a - bo_sum bo /\ bo_over bo = (credit a <? bo_sum bo)) /\
  (st a <> 0 -> bo_over bo = false) /\ (st a = 2 -> bo_sum bo = 0).
Proof.
  unfold burst. destruct (burst_loop minpkt a (mtu - rsv) rsv segs []) as [[a1 lens] status] eqn:El.
  destruct (burst_loop_spec _ _ _ _ _ _ _ _ _ El) as (L1 & L2 & L3 & L4).
  assert (Hsum : st a = 2 -> sumN lens = 0) by (intro H2; rewrite (L4 H2); reflexivity).
  destruct (N.eqb_spec status 0) as [-> | Hs].
  - pose proof (balance_same (on_sent a1 (sumN lens))) as [Cs Cc].
    destruct (balance (on_sent a1 (sumN lens))) as [a3 b3]. cbn [fst bo_sum bo_over] in *.
    rewrite Cs, Cc, on_sent_st, L1. unfold over_debit. rewrite L2.
    split; [reflexivity |]. split; [| split; [| exact Hsum]].
    + intro E0. rewrite on_sent_credit, L2, E0 by congruence. split; reflexivity.
    + intro Hn. destruct (N.eqb_spec (st a) 0); [contradiction | reflexivity].
  - cbn [bo_sum bo_over]. rewrite L1, L2. split; [reflexivity |]. split; [| split; [reflexivity | exact Hsum]].
    (* nothing was assembled *)
    intro E0. destruct (L3 E0) as [? | ->]; [contradiction |]. cbn [sumN fold_right].
    split; symmetry; [apply N.sub_0_r | apply N.ltb_ge, N.le_0_l].
Qed.

(* how much a burst hands to IO: outside the known class it is one datagram without a forward header, which stays within
   the credit its assembler read *)
Lemma burst_within minpkt a mtu rsv segs :
  st a = 0 -> known_class a (ABurst mtu rsv segs) = false -> bo_sum (snd (burst minpkt a mtu rsv segs)) <= credit a.
Proof.
  intros H0 Hk. unfold known_class in Hk. rewrite H0 in Hk. cbn [N.eqb andb] in Hk.
  apply orb_false_elim in Hk as [Hk Hk3]. apply orb_false_elim in Hk as [Hk1 Hk2].
  apply N.ltb_ge in Hk1, Hk2. assert (rsv = 0) as -> by lia.
  unfold burst. destruct (burst_loop minpkt a (mtu - 0) 0 segs []) as [[a1 lens] status] eqn:El.
  assert (Hs : sumN lens <= credit a); [| destruct (status =? 0); [destruct (balance _) |]; exact Hs].
  rewrite N.sub_0_r in El.
  destruct segs as [| r [| r2 rest]]; [| | exfalso; unfold lenN in Hk1; cbn [length] in Hk1; lia]; cbn [burst_loop] in El.
  - injection El as _ <- _. apply N.le_0_l.
  - pose proof (balance_res a) as Br. destruct (balance a) as [a2 b]. cbn [snd] in Br. rewrite H0 in Br. cbn [N.eqb] in Br.
    destruct (load_segment minpkt b mtu r) as [ | | n | ] eqn:Es; try (injection El as _ <- _; apply N.le_0_l).
    assert (Hn : n <= credit a).
    { destruct (credit a =? 0); subst b; [discriminate Es |]. apply (load_segment_le _ _ _ _ _ Es).
      cbn [existsb] in Hk3. rewrite orb_false_r in Hk3.
      apply andb_false_elim in Hk3 as [Hk3 | Hk3]; apply N.ltb_ge in Hk3; [left; lia | right; lia]. }
    cbn [last] in El. destruct (N.ltb_spec (0 + n) 0) as [Hlt | _]; [lia |].
    cbn [burst_loop app] in El. injection El as _ <- _. cbn [sumN fold_right]. lia.
Qed.

(* the law of the counter over one operation in which dR bytes arrive and dH are handed to IO: `state` only moves from
   NORMAL to GRANTED or ABORTED; while it is NORMAL the credit gains 3 x dR and loses dH as far as it reaches (dH beyond
   the credit is the saturation that [over] reports) *)
Definition law (a a' : aa) (dR dH : N) (over : bool) : Prop :=
  (st a' = st a \/ (st a = 0 /\ 1 <= st a' <= 2 /\ dH = 0 /\ over = false)) /\
  (st a <> 0 -> over = false) /\
  (st a = 0 -> st a' = 0 -> credit a + 3 * dR < W -> credit a' = credit a + 3 * dR - dH /\ over = (credit a <? dH)).

Lemma aa_exec_effect minpkt a o : let '(a', out) := aa_exec minpkt a o in
  let dH := handed1 a o out in
  law a a' (rcvd1 o) dH (over1 a o out) /\
  (st a = 2 -> match o with AOnSent n => dH = n | _ => dH = 0 end) /\
  (st a = 0 -> known_class a o = false -> dH <= credit a).
Proof.
  assert (Hz : forall c, false = (c <? 0)) by (intro c; symmetry; apply N.ltb_ge, N.le_0_l).
  assert (Hnop : forall a' dR, st a' = st a -> (st a = 0 -> credit a + 3 * dR < W -> credit a' = credit a + 3 * dR) ->
            law a a' dR 0 false).
  { intros a' dR Es Ec. split; [left; exact Es |]. split; [reflexivity |]. intros E0 _ Hw.
    rewrite (Ec E0 Hw), N.sub_0_r. split; [reflexivity | apply Hz]. }
  (* grant, abort on a NORMAL path *)
  assert (Hset : forall v, st a = 0 -> 1 <= v <= 2 -> law a (wake_credit (set_st a v)) 0 0 false).
  { intros v E0 Hv. unfold law. rewrite wake_credit_st. cbn [set_st st].
    split; [right; repeat split; (lia || exact E0) |]. split; [reflexivity |]. intros _ H. lia. }
  assert (Hnone : forall k : bool, (st a = 2 -> 0 = 0) /\ (st a = 0 -> k = false -> 0 <= credit a))
    by (intro k; split; intros; [reflexivity | apply N.le_0_l]).
  destruct o as [n | | n | | | mtu rsv segs | ]; cbn [aa_exec rcvd1 handed1 over1].
  - split; [apply Hnop; [apply on_rcvd_st | apply on_rcvd_credit] | apply Hnone].
  - split; [apply Hnop; [reflexivity | intros; lia] | apply Hnone].
  - unfold law, over_debit, known_class. rewrite on_sent_st. split; [| split; [intros; reflexivity |]].
    + split; [left; reflexivity |]. split; [intro Hn; destruct (N.eqb_spec (st a) 0); [contradiction | reflexivity] |].
      intros E0 _ _. rewrite on_sent_credit, E0 by exact E0. split; [lia | reflexivity].
    + intros E0 Hk. rewrite E0 in Hk. apply N.ltb_ge, Hk.
  - unfold grant. destruct (N.eqb_spec (st a) 0) as [E0 | E0]; (split; [| apply Hnone]);
      [apply Hset; [exact E0 | lia] | apply Hnop; [reflexivity | intros; contradiction]].
  - unfold abort. destruct (N.eqb_spec (st a) 0) as [E0 | E0]; (split; [| apply Hnone]);
      [apply Hset; [exact E0 | lia] | apply Hnop; [reflexivity | intros; contradiction]].
  - pose proof (burst_effect minpkt a mtu rsv segs) as B. pose proof (burst_within minpkt a mtu rsv segs) as Bw.
    destruct (burst minpkt a mtu rsv segs) as [a' bo]. cbn [handed1 over1 snd] in *.
    destruct B as (B1 & B2 & B3 & B4). split; [| split; assumption].
    split; [left; exact B1 |]. split; [exact B3 |]. intros E0 _ _. destruct (B2 E0) as [-> ->]. split; [lia | reflexivity].
  - unfold poll_wait. destruct (cbit a); cbn [handed1 over1]; (split; [apply Hnop; [reflexivity | intros; cbn; lia] | apply Hnone]).
Qed.

(* one observed step: the operation, then a balance() that changes the waker only *)
Lemma gstep_effect minpkt g o : let '(g', over) := gstep minpkt g o in
  exists dH, gRv g' = gRv g + rcvd1 o /\ gHv g' = gHv g + dH /\ law (ga g) (ga g') (rcvd1 o) dH over /\
    (st (ga g) = 2 -> match o with AOnSent n => dH = n | _ => dH = 0 end) /\
    (st (ga g) = 0 -> known_class (ga g) o = false -> dH <= credit (ga g)).
Proof.
  unfold gstep. pose proof (aa_exec_effect minpkt (ga g) o) as F. destruct (aa_exec minpkt (ga g) o) as [a1 out].
  pose proof (balance_same a1) as [Bs Bc]. destruct (balance a1) as [a2 b2]. cbn [fst ga gRv gHv] in *.
  exists (handed1 (ga g) o out). unfold law in *. rewrite Bs, Bc. destruct F as (F1 & F2 & F3).
  repeat split; try apply F1; auto.
Qed.

Definition Inv (g : gst) : Prop :=
  st (ga g) <= 2 /\
  (st (ga g) = 0 -> credit (ga g) + gHv g = 3 * gRv g) /\
  (st (ga g) = 2 -> gHv g <= 3 * gRv g).

Lemma Inv_g0 : Inv g0.
Proof. unfold Inv, g0. cbn. repeat split; lia. Qed.

Lemma gstep_inv minpkt g o :
  Inv g -> known_class (ga g) o = false -> 3 * (gRv g + rcvd1 o) < W ->
  (st (ga g) = 2 -> match o with AOnSent n => n = 0 | _ => True end) ->
  Inv (fst (gstep minpkt g o)) /\ snd (gstep minpkt g o) = false.
Proof.
  intros (Hst & H0 & H2) Hk HR' Hab. pose proof (gstep_effect minpkt g o) as F.
  destruct (gstep minpkt g o) as [g' over]. destruct F as (dH & ER & EH & (FS & FV & FC) & F2 & Hin). cbn [fst snd].
  unfold Inv. rewrite ER, EH.
  assert (Hd : st (ga g) = 2 -> dH = 0).
  { intro E2. specialize (F2 E2). specialize (Hab E2). destruct o; try exact F2. rewrite F2. exact Hab. }
  destruct (N.eq_dec (st (ga g)) 0) as [E0 | E0].
  - specialize (H0 E0). specialize (Hin E0 Hk). assert (Hw : credit (ga g) + 3 * rcvd1 o < W) by (clear - H0 HR'; lia).
    destruct FS as [FS | (_ & FS & -> & ->)]; [| clear - FS H0 HR'; repeat split; lia].
    destruct (FC E0 ltac:(congruence) Hw) as [-> ->]. rewrite FS.
    split; [clear - E0 H0 Hin HR'; repeat split; lia | apply N.ltb_ge, Hin].
  - destruct FS as [FS | (FS & _)]; [| contradiction]. rewrite FS.
    split; [| exact (FV E0)]. clear - Hst H2 Hd E0 HR'. repeat split; lia.
Qed.

(* what c15_ratio and c15_credit_exact read off: every prefix of every clean history, from any state with the invariant *)
Lemma p_c15_clean : forall minpkt ops g,
  Inv g -> clean minpkt g ops ->
  Forall (fun gw : gst * bool =>
            let g' := fst gw in
            Inv g' /\ snd gw = false /\
            (st (ga g') <> 1 -> gHv g' <= 3 * gRv g') /\
            (st (ga g') = 0 -> credit (ga g') = 3 * gRv g' - gHv g'))
         (gtrace minpkt g ops).
Proof.
  intros minpkt ops. induction ops as [| o rest IH]; intros g HI Hc; cbn [gtrace]; [constructor |].
  cbn [clean] in Hc. destruct Hc as (Hk & HR & Hab & Hrest).
  destruct (gstep_inv minpkt g o HI Hk HR Hab) as [HI' Hw].
  destruct (gstep minpkt g o) as [g' w] eqn:Eg. cbn [fst snd] in *.
  constructor; [| apply IH; assumption].
  cbn [fst snd]. split; [exact HI' |]. split; [exact Hw |].
  destruct HI' as (Hst & H0 & H2). split.
  - intro Hn1. assert (st (ga g') = 0 \/ st (ga g') = 2) as [E | E] by lia; [specialize (H0 E); lia | exact (H2 E)].
  - intro E. specialize (H0 E). lia.
Qed.

(* `unreachable!()` in balance() is unreachable: the state is always one of the three constants *)
Lemma p_c15_no_panic : forall minpkt ops g,
  st (ga g) <= 2 ->
  Forall (fun gw : gst * bool => st (ga (fst gw)) <= 2 /\ snd (balance (ga (fst gw))) <> BPanic) (gtrace minpkt g ops).
Proof.
  intros minpkt ops. induction ops as [| o rest IH]; intros g Hst; cbn [gtrace]; [constructor |].
  pose proof (gstep_effect minpkt g o) as F. destruct (gstep minpkt g o) as [g' w].
  destruct F as (dH & _ & _ & (FS & _) & _). assert (Hst' : st (ga g') <= 2) by (clear - Hst FS; lia).
  constructor; [| apply IH; exact Hst'].
  cbn [fst]. split; [exact Hst' |]. rewrite balance_res.
  destruct (N.eqb_spec (st (ga g')) 1) as [E1 | E1]; [discriminate |].
  destruct (N.eqb_spec (st (ga g')) 2) as [E2 | E2]; [discriminate |].
  destruct (N.eqb_spec (st (ga g')) 0) as [E | E]; [destruct (credit (ga g') =? 0); discriminate |].
  exfalso. lia.
Qed.

(* in every history (multi-segment bursts, padded Initials, over-debits included) the credit of an unvalidated path is
   at most 3 x the bytes received so far: it cannot underflow into an effectively unlimited allowance *)
Lemma p_c15_no_underflow : forall minpkt ops g,
  (st (ga g) = 0 -> credit (ga g) <= 3 * gRv g) ->
  3 * (gRv g + fold_right N.add 0 (map rcvd1 ops)) < W ->
  Forall (fun gw : gst * bool => st (ga (fst gw)) = 0 -> credit (ga (fst gw)) <= 3 * gRv (fst gw))
         (gtrace minpkt g ops).
Proof.
  intros minpkt ops. induction ops as [| o rest IH]; intros g Hc HR; cbn [gtrace]; [constructor |].
  cbn [map fold_right] in HR.
  pose proof (gstep_effect minpkt g o) as F. destruct (gstep minpkt g o) as [g' w].
  destruct F as (dH & ER & _ & (FS & _ & FC) & _).
  assert (Hc' : st (ga g') = 0 -> credit (ga g') <= 3 * gRv g').
  { intro E0. assert (E : st (ga g) = 0) by (clear - FS E0; lia). specialize (Hc E).
    rewrite ER, (proj1 (FC E E0 ltac:(clear - Hc HR; lia))). clear - Hc. lia. }
  constructor; [exact Hc' | apply IH; [exact Hc' | rewrite ER; clear - HR; lia]].
Qed.
