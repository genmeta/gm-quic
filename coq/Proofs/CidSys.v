(* System-level lifting of the component invariants (remote structure, limit, local histories)
   to every operation list of Model/Cid.v. *)
From Coq Require Import List NArith ZArith.
From GQ Require Import Model.Router Model.RemoteCid Model.Cid
  Proofs.LocalCid Proofs.RemoteCid Proofs.RemoteInv Proofs.Cid.
Import ListNotations.
Local Open Scope N_scope.

(* RETIRE_CONNECTION_ID frames visible in an observation *)
Definition frames_of (x : out) : list N :=
  match x with
  | XNewCid _ fr => fr
  | XPath _ fr => fr
  | XFrames fr => fr
  | _ => []
  end.
Definition emitted (xs : list out) : list N := flat_map frames_of xs.

Lemma silent_frames : forall x, silent x -> frames_of x = [].
Proof. destruct x; (reflexivity || contradiction). Qed.

Lemma emitted_snoc : forall xs x, emitted (xs ++ [x]) = emitted xs ++ frames_of x.
Proof. intros. unfold emitted. rewrite flat_map_app. cbn. rewrite app_nil_r. reflexivity. Qed.

Section Sys.
  Variable chk : N -> N -> N -> bool.
  Variable post : rcids -> bool.
  Variable rnd : N -> cid.
  Variable fuel : nat.

  Notation genq := (genq rnd fuel).
  Notation steps := (steps chk post rnd fuel).
  Notation rstep := (rstep chk post).

  Lemma rstep_inv : forall r em x r', RInv r em -> rstep r x r' -> RInv r' (em ++ frames_of x).
  Proof.
    intros r em x r' HI H.
    destruct H as [seq rpt id r' fr res Hs H|r' p fr H|p r' res Hp H|p r' fr Hp H|p r' fr Hp H|x Hs]; cbn [frames_of].
    - eapply recv_inv; eassumption.
    - exact (apply_inv _ _ _ _ _ (proj1 HI) H).
    - rewrite app_nil_r. eapply borrow_inv; eassumption.
    - eapply release_inv; eassumption.
    - eapply retire_inv; eassumption.
    - rewrite (silent_frames _ Hs), app_nil_r. exact HI.
  Qed.

  Lemma rstep_limit : forall r x r', rstep r x r' ->
    r_limit r' = r_limit r /\ (sound_chk chk -> Aligned r -> Fits r -> Fits r').
  Proof.
    intros r x r' H.
    destruct H as [seq rpt id r' fr res Hs H|r' p fr H|p r' res Hp H|p r' fr Hp H|p r' fr Hp H|x _].
    - split; [exact (recv_limit _ _ _ _ _ _ _ _ _ H)|intros HS HA HF; exact (recv_fits _ _ _ _ _ _ _ _ _ HS HA HF H)].
    - apply apply_fields in H. destruct H as [_ [E2 [_ E4]]]. unfold Fits. rewrite E2, E4. auto.
    - unfold path_borrow in H. destruct (cell_borrow _). inversion H. auto.
    - unfold path_release in H. destruct (cell_renew _). inversion H. auto.
    - unfold path_retire in H. destruct (cell_retire _). inversion H. auto.
    - auto.
  Qed.

  Lemma steps_limit : forall ops s s' xs,
    steps s ops = (s', xs) -> r_limit (s_remote s') = r_limit (s_remote s).
  Proof.
    intros ops s s' xs H.
    refine (steps_inv_all _ _ _ _ (fun s1 _ => r_limit (s_remote s1) = r_limit (s_remote s)) _ ops s [] s' xs eq_refl H).
    intros s1 _ o s2 x HL H1. rewrite <- HL. apply (rstep_limit _ _ _ (step_rstep _ _ _ _ _ _ _ _ H1)).
  Qed.

  Lemma steps_remote : forall ops s em s' xs,
    RInv (s_remote s) em -> steps s ops = (s', xs) ->
    RInv (s_remote s') (em ++ emitted xs) /\ (sound_chk chk -> Fits (s_remote s) -> Fits (s_remote s')).
  Proof.
    intros ops s em s' xs HI H. rewrite <- (app_nil_r em) in HI.
    refine (steps_inv_all _ _ _ _ (fun s1 xs1 => RInv (s_remote s1) (em ++ emitted xs1) /\
                                  (sound_chk chk -> Fits (s_remote s) -> Fits (s_remote s1))) _
              ops s [] s' xs (conj HI (fun _ HF => HF)) H).
    intros s1 xs1 o s2 x [HI1 HF1] H1. apply step_rstep in H1. rewrite emitted_snoc, app_assoc.
    split; [exact (rstep_inv _ _ _ _ HI1 H1)|].
    intros HS HF. exact (proj2 (rstep_limit _ _ _ H1) HS (p_al _ _ (proj1 HI1)) (HF1 HS HF)).
  Qed.

  Definition LReach (cs : list conn) : Prop :=
    forall i cn l, nth_error cs i = Some cn -> c_local cn = Some l ->
      exists fs, lreach renv (genq (N.of_nat i)) retire_cid l fs.

  Lemma cstep_reach : forall b e cs e' cs', cstep rnd fuel b e cs e' cs' -> LReach cs -> LReach cs'.
  Proof.
    intros b e cs e' cs' H HR.
    destruct H as [|i l od h o e1 l1 fs r h' Hi H|od e1 scid e3 l fs h _ _ EL|i l od h Hi]; [exact HR| | |];
      intros j cn l2 Hn Hl.
    - rewrite (nth_upd Hi _ j) in Hn. destruct (Nat.eqb_spec j i) as [->|_]; [|eapply HR; eassumption].
      inversion Hn; subst cn. inversion Hl; subst l2. destruct (HR i _ l Hi eq_refl) as [fs0 Hr].
      exists (fs0 ++ fs). eapply lr_step; eassumption.
    - apply nth_error_snoc in Hn. destruct Hn as [Hn|[-> ->]]; [eapply HR; eassumption|].
      inversion Hl; subst l2. exists fs. eapply lr_new. exact EL.
    - rewrite (nth_upd Hi _ j) in Hn. destruct (Nat.eqb j i); [|eapply HR; eassumption].
      inversion Hn; subst cn. discriminate.
  Qed.

  Lemma steps_reach : forall ops s s' xs, LReach (s_conns s) -> steps s ops = (s', xs) -> LReach (s_conns s').
  Proof.
    intros ops s s' xs HR H.
    refine (steps_inv_all _ _ _ _ (fun s _ => LReach (s_conns s)) _ ops s [] s' xs HR H).
    intros s1 _ o s2 x HR1 H1. exact (cstep_reach _ _ _ _ _ (proj1 (step_cases _ _ _ _ _ _ _ _ H1)) HR1).
  Qed.
End Sys.

Lemma apply_n_limit : forall n s, r_limit (apply_n n s) = r_limit s.
Proof.
  induction n; intros s; cbn [apply_n]; [reflexivity|].
  destruct (apply_dcid s) as [[s1 p] fr1] eqn:EA. rewrite IHn. apply apply_fields in EA. tauto.
Qed.

Lemma init_cids : forall limit npre hs id0,
  r_cids (remote_init limit npre hs id0) = [Some (0, id0)] /\ r_limit (remote_init limit npre hs id0) = limit.
Proof.
  intros. unfold remote_init, apply_initial_dcid. destruct (arrange _) as [s2 fr] eqn:E.
  apply arrange_fields in E. destruct E as [_ [E2 [_ E4]]]. cbn [fst]. rewrite E2, E4. cbn [r_cids r_limit].
  split; [reflexivity|]. rewrite apply_n_limit. reflexivity.
Qed.
