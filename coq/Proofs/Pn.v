(* Proofs about PacketNumber::encode / decode (Model/Pn.v): C07 decode clauses. *)
From Coq Require Import ZArith Bool Lia.
From GQ Require Import Model.Pn.
Local Open Scope Z_scope.

(* `(expected & !mask) | truncated` puts truncated on the base of expected's window *)
Lemma lor_ldiff_pow2 : forall e t n, 0 <= n -> 0 <= t < 2 ^ n ->
  Z.lor (Z.ldiff e (2 ^ n - 1)) t = (e / 2 ^ n) * 2 ^ n + t.
Proof.
  intros e t n Hn Ht.
  replace (2 ^ n - 1) with (Z.ones n) by (rewrite Z.ones_equiv; lia).
  rewrite Z.ldiff_ones_r by lia.
  rewrite Z.shiftr_div_pow2, Z.shiftl_mul_pow2 by lia.
  assert (Hland : Z.land (e / 2 ^ n * 2 ^ n) t = 0).
  { apply Z.bits_inj'. intros i Hi. rewrite Z.land_spec, Z.bits_0.
    destruct (Z_lt_le_dec i n) as [Hlt | Hge].
    - rewrite Z.mul_pow2_bits_low by lia. reflexivity.
    - replace t with (t mod 2 ^ n) by (apply Z.mod_small; lia).
      rewrite Z.mod_pow2_bits_high by lia. apply andb_false_r. }
  rewrite <- Z.lxor_lor by exact Hland.
  symmetry. apply Z.add_nocarry_lxor. exact Hland.
Qed.

(* RFC 9000 A.3 on plain integers.  The candidate [c] carries the low part of [pn] on the base of
   the window of [win] numbers that holds [e]; a [pn] within half a window of [e] is [c] or one
   of its neighbours [c + win], [c - win], and the comparisons of decode tell which. *)
Lemma window_choice win h e pn :
  0 < h -> win = 2 * h -> 0 <= e -> e + h < U64 -> 0 <= pn -> e - h < pn <= e + h ->
  let c := e / win * win + pn mod win in
  (if (h <=? e) && (c <=? e - h) then
     if U64 <=? c + win then DecOverflow else DecOk (c + win)
   else if U64 <=? e + h then DecOverflow
   else if (e + h <? c) && (win <? c) then DecOk (c - win)
   else DecOk c) = DecOk pn.
Proof.
  intros Hh Hwin He Hu Hpn Hnear c.
  pose proof (Z.div_mod e win ltac:(lia)) as Ee.
  pose proof (Z.mod_pos_bound e win ltac:(lia)) as Hre.
  pose proof (Z.div_mod pn win ltac:(lia)) as Ep.
  pose proof (Z.mod_pos_bound pn win ltac:(lia)) as Ht.
  assert (Hbe : 0 <= win * (e / win)) by (apply Z.mul_nonneg_nonneg; [|apply Z.div_pos]; lia).
  assert (Hbp : 0 <= win * (pn / win)) by (apply Z.mul_nonneg_nonneg; [|apply Z.div_pos]; lia).
  assert (Ec : c = win * (e / win) + pn mod win) by (unfold c; lia).
  clearbody c.
  set (qe := e / win) in *. set (qp := pn / win) in *. clearbody qe qp.
  assert (Hq : qp = qe + 1 \/ qp = qe \/ qp = qe - 1) by nia.
  destruct Hq as [-> | [-> | ->]].
  - (* pn = c + win *)
    rewrite (proj2 (Z.leb_le h e)), (proj2 (Z.leb_le c _)), (proj2 (Z.leb_gt U64 _)) by lia.
    cbn [andb]. f_equal. lia.
  - (* pn = c *)
    rewrite (proj2 (Z.leb_gt c _)), andb_false_r, (proj2 (Z.leb_gt U64 _)), (proj2 (Z.ltb_ge _ c)) by lia.
    cbn [andb]. f_equal. lia.
  - (* pn = c - win *)
    rewrite (proj2 (Z.leb_gt c _)), andb_false_r, (proj2 (Z.leb_gt U64 _)),
      (proj2 (Z.ltb_lt _ c)), (proj2 (Z.ltb_lt win c)) by lia.
    cbn [andb]. f_equal. lia.
Qed.

Definition bits_of (p : pnum) : Z := 8 * width p.
Definition half (p : pnum) : Z := 2 ^ (bits_of p - 1).

Lemma half_spec p : 0 <= bits_of p /\ 2 ^ bits_of p = 2 * half p /\ 0 < half p <= 2 ^ 31.
Proof. destruct p; cbv [half bits_of width]; lia. Qed.

Lemma decode_window p pn e :
  payload p = pn mod 2 ^ bits_of p -> 0 <= pn -> 0 <= e < 2 ^ 63 ->
  e - half p < pn <= e + half p -> decode p e = DecOk pn.
Proof.
  intros Hpay Hpn He Hnear. destruct (half_spec p) as (Hb & Hw & Hh).
  unfold decode. fold (bits_of p).
  rewrite Hpay, lor_ldiff_pow2 by (try apply Z.mod_pos_bound; lia).
  replace (2 ^ bits_of p / 2) with (half p) by (rewrite Hw, Z.mul_comm, Z.div_mul; lia).
  apply window_choice; unfold U64; lia.
Qed.

(* put_packet_number splits a 3-byte number into its top byte and low 16 bits *)
Lemma wire_payload : forall p, 0 <= payload p ->
  payload (wire p) = match p with U24 x => x mod 2 ^ 24 | _ => payload p end.
Proof.
  intros [x|x|x|x] _; cbn [wire payload]; try reflexivity.
  change (2 ^ 24) with (2 ^ 16 * 2 ^ 8). rewrite Z.rem_mul_r by lia. lia.
Qed.

Lemma wire_reduced x : 0 <= x < 2 ^ 24 -> wire (U24 x) = U24 x.
Proof.
  intro Hx. change (wire (U24 x)) with (U24 (payload (wire (U24 x)))).
  rewrite wire_payload, Z.mod_small by (cbn [payload]; lia). reflexivity.
Qed.

Lemma width_wire : forall p, width (wire p) = width p.
Proof. destruct p; reflexivity. Qed.

Lemma wire_id : forall p, (forall x, p <> U24 x) -> wire p = p.
Proof. destruct p; intros H; try reflexivity. exfalso. eapply H. reflexivity. Qed.

(* [wire p = p] holds since the fix of F31; the window is never below 2^16 because the range
   encode sizes the number for is at least 2^16 - 1 *)
Lemma encode_spec pn la : 0 <= la <= pn -> pn - la < 2 ^ 31 ->
  exists p, encode pn la = EncOk p /\ wire p = p /\ payload p = pn mod 2 ^ bits_of p /\
            pn - la < half p /\ 2 ^ 15 <= half p.
Proof.
  intros Hla Hd. unfold encode.
  rewrite (proj2 (Z.ltb_ge pn la)), (proj2 (Z.leb_gt U64 _)) by (unfold U64; lia).
  set (range := Z.max ((pn - la) * 2) (2 ^ 16 - 1)).
  assert (Hr : (pn - la) * 2 <= range /\ 2 ^ 16 - 1 <= range < 2 ^ 32) by (unfold range; lia).
  clearbody range.
  destruct (Z.ltb_spec range (2 ^ 8)); [lia|].
  destruct (Z.ltb_spec range (2 ^ 16)).
  { eexists. split; [reflexivity|]. cbv [half bits_of width]. repeat split; lia. }
  destruct (Z.ltb_spec range (2 ^ 24)).
  { eexists. split; [reflexivity|]. split; [|split].
    - apply wire_reduced, Z.mod_pos_bound. lia.
    - symmetry. apply Znumtheory.Zmod_div_mod; [lia | lia | exists (2 ^ 8); reflexivity].
    - cbv [half bits_of width]. lia. }
  destruct (Z.ltb_spec range (2 ^ 32)); [|lia].
  eexists. split; [reflexivity|]. cbv [half bits_of width]. repeat split; lia.
Qed.

(* C07 decode clause.  The receiver's expectation may lie anywhere from la up to less than 2^15
   beyond pn: la <= exp <= pn is the in-order case, and a reordered packet (pn below the
   expectation) still decodes while it is inside the half window, which is never below 2^15. *)
Lemma encode_decode pn la exp :
  0 <= la <= pn -> pn - la < 2 ^ 31 -> la <= exp < 2 ^ 63 -> exp - pn < 2 ^ 15 ->
  exists p, encode pn la = EncOk p /\ decode p exp = DecOk pn /\ wire p = p.
Proof.
  intros Hla Hd He Hnear.
  destruct (encode_spec pn la Hla Hd) as (p & Henc & Hwire & Hpay & Hhalf & Hmin).
  exists p. split; [exact Henc|]. split; [|exact Hwire].
  apply decode_window; [exact Hpay | lia..].
Qed.

(* what is read back from the wire decodes alike: the value encode returns is its own wire form *)
Lemma encode_decode_wire pn la exp :
  0 <= la <= pn -> pn - la < 2 ^ 31 -> la <= exp < 2 ^ 63 -> exp - pn < 2 ^ 15 ->
  exists p, encode pn la = EncOk p /\ decode (wire p) exp = DecOk pn.
Proof.
  intros Hla Hd He Hnear.
  destruct (encode_decode pn la exp Hla Hd He Hnear) as (p & Henc & Hdec & Hwire).
  exists p. rewrite Hwire. split; assumption.
Qed.
