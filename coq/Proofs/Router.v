(* Lemmas about the routing table model (Model/Router.v): the table is used through [t_get] only.
   Then the router seen through an abstraction ("view"): the table and, per connection in creation
   order, its active IDs and its live origin-DCID entry.  Two invariants:
     VB  every table entry points to a connection that still owns that ID
         (so: a retired ID, or an ID of a dropped connection, is routed nowhere - or to a
          connection that owns it now)                                  -- holds for ALL histories
     VC  every active ID is routed to its own connection, and a connection's active IDs are
         distinct (so: no ID has two owners)                            -- holds for histories
         in which a server connection is only created for an unroutable origin DCID
   and the elementary changes [vstep] of which every operation of Model/Cid.v is a sequence. *)
From Coq Require Import List NArith ZArith Bool Lia.
From GQ Require Import Model.Router Model.RemoteCid Proofs.RemoteCid.
Import ListNotations.
Local Open Scope N_scope.

Lemma get_remove : forall t k x, t_get (t_remove t k) x = if k =? x then None else t_get t x.
Proof.
  induction t as [|[k' v] r IH]; intros k x; cbn [t_remove t_get].
  - destruct (k =? x); reflexivity.
  - destruct (k' =? k) eqn:E1.
    + apply N.eqb_eq in E1; subst k'. rewrite IH. destruct (k =? x); reflexivity.
    + cbn [t_get]. rewrite IH. destruct (k' =? x) eqn:E2; [|reflexivity].
      apply N.eqb_eq in E2; subst k'. rewrite N.eqb_sym, E1. reflexivity.
Qed.

Lemma get_insert : forall t k v x, t_get (t_insert t k v) x = if k =? x then Some v else t_get t x.
Proof.
  intros. unfold t_insert. cbn [t_get]. rewrite get_remove. destruct (k =? x); reflexivity.
Qed.

Lemma get_remove_if : forall t k q x,
  t_get (t_remove_if t k q) x =
  if (k =? x) && (match t_get t k with Some q' => q' =? q | None => false end) then None else t_get t x.
Proof.
  intros. unfold t_remove_if. destruct (t_get t k) as [q'|] eqn:E.
  - destruct (q' =? q); [rewrite get_remove|]; destruct (k =? x); reflexivity.
  - rewrite andb_false_r. reflexivity.
Qed.

(* the pointer-equality guard: dropping an entry never disturbs a signpost that now points to
   another connection's queue *)
Lemma remove_if_guard : forall t k q x q',
  t_get t x = Some q' -> q' <> q -> t_get (t_remove_if t k q) x = Some q'.
Proof.
  intros. rewrite get_remove_if. destruct (k =? x) eqn:E; [|exact H].
  apply N.eqb_eq in E; subst x. rewrite H.
  destruct (q' =? q) eqn:E2; [apply N.eqb_eq in E2; contradiction|]. reflexivity.
Qed.

Section Gen.
  Variable rnd : N -> cid.

  Lemma gen_loop_fresh : forall f t k c k', gen_loop rnd f t k = Some (c, k') -> t_get t c = None.
  Proof.
    induction f as [|f IH]; intros t k c k' H; cbn [gen_loop] in H; [discriminate|].
    destruct (t_get t (rnd k)) eqn:E; [exact (IH _ _ _ _ H)|]. inversion H; subst. exact E.
  Qed.

  Lemma gen_unique_spec : forall fuel q e e' c,
    gen_unique rnd fuel q e = Some (e', c) ->
    t_get (e_tab e) c = None /\ e_tab e' = t_insert (e_tab e) c q.
  Proof.
    intros fuel q e e' c H. unfold gen_unique in H.
    destruct (gen_loop rnd fuel (e_tab e) (e_k e)) as [[c0 k']|] eqn:E; [|discriminate].
    inversion H; subst. split; [exact (gen_loop_fresh _ _ _ _ _ E)|reflexivity].
  Qed.

  Lemma gen_loop_progress : forall f t k,
    (exists j, (j < f)%nat /\ t_get t (rnd (k + N.of_nat j)) = None) ->
    gen_loop rnd f t k <> None.
  Proof.
    induction f as [|f IH]; intros t k [j [Hj Hv]]; [lia|].
    cbn [gen_loop]. destruct (t_get t (rnd k)) eqn:E; [|discriminate].
    apply IH. destruct j as [|j].
    - rewrite N.add_0_r in Hv. congruence.
    - exists j. split; [lia|]. replace (k + 1 + N.of_nat j) with (k + N.of_nat (S j)) by lia. exact Hv.
  Qed.
End Gen.

Notation cview := (list cid * option cid)%type.
Notation view := (table * list cview)%type.

Definition VB (v : view) : Prop :=
  forall x q, t_get (fst v) x = Some q ->
    exists i a od, q = N.of_nat i /\ nth_error (snd v) i = Some (a, od) /\ (In x a \/ od = Some x).

Definition VC (v : view) : Prop :=
  forall i a od, nth_error (snd v) i = Some (a, od) ->
    NoDup a /\ forall x, In x a -> t_get (fst v) x = Some (N.of_nat i).

(* [forced]: the origin DCID may be inserted although it is routed to another connection *)
Inductive cchange (forced : bool) (i : nat) (t : table) : cview -> table -> cview -> Prop :=
| cc_gen a od c :                              (* gen_unique_cid *)
    t_get t c = None -> cchange forced i t (a, od) (t_insert t c (N.of_nat i)) (a ++ [c], od)
| cc_retire a1 c a2 od :                       (* retire_cid of an active ID *)
    cchange forced i t (a1 ++ c :: a2, od) (t_remove t c) (a1 ++ a2, od)
| cc_odcid a o :                               (* QuicRouter::insert of the origin DCID *)
    (forced = false -> forall q, t_get t o = Some q -> q = N.of_nat i) ->
    cchange forced i t (a, None) (t_insert t o (N.of_nat i)) (a, Some o)
| cc_drop od :                                 (* drop of the origin-DCID entry, all IDs retired *)
    cchange forced i t ([], od)
      (match od with Some o => t_remove_if t o (N.of_nat i) | None => t end) ([], None).

Inductive vstep (forced : bool) : view -> view -> Prop :=
| v_at t cs i v t' v' :
    nth_error cs i = Some v -> cchange forced i t v t' v' -> vstep forced (t, cs) (t', upd cs i v')
| v_conn t cs : vstep forced (t, cs) (t, cs ++ [([], None)]).

Inductive vsteps (forced : bool) : view -> view -> Prop :=
| vs_refl v : vsteps forced v v
| vs_cons v1 v2 v3 : vstep forced v1 v2 -> vsteps forced v2 v3 -> vsteps forced v1 v3.

Lemma vsteps_trans : forall b v1 v2 v3, vsteps b v1 v2 -> vsteps b v2 v3 -> vsteps b v1 v3.
Proof. induction 1; intros; [assumption|]. eapply vs_cons; eauto. Qed.

(* connection i, wherever it stands, gets from v to v' while the table gets from t to t' *)
Definition cmove (forced : bool) (i : nat) (t : table) (v : cview) (t' : table) (v' : cview) : Prop :=
  forall cs, nth_error cs i = Some v -> vsteps forced (t, cs) (t', upd cs i v').

Lemma cmove_refl : forall b i t v, cmove b i t v t v.
Proof. intros b i t v cs Hi. rewrite upd_same by assumption. apply vs_refl. Qed.

Lemma cmove_one {b i t v t' v'} : cchange b i t v t' v' -> cmove b i t v t' v'.
Proof. intros H cs Hi. eapply vs_cons; [eapply v_at; eassumption|apply vs_refl]. Qed.

Lemma cmove_trans {b i t v t1 v1 t2 v2} :
  cmove b i t v t1 v1 -> cmove b i t1 v1 t2 v2 -> cmove b i t v t2 v2.
Proof.
  intros H1 H2 cs Hi. eapply vsteps_trans; [exact (H1 cs Hi)|].
  rewrite <- (upd_upd _ cs i v1 v2). apply H2. rewrite (nth_upd Hi _ i), Nat.eqb_refl. reflexivity.
Qed.

(* connection i changes: its new entries are its own, and what it gives up is no longer routed to it *)
Lemma VB_upd : forall t cs t' i a od a' od',
  nth_error cs i = Some (a, od) ->
  (forall x q, t_get t' x = Some q ->
     t_get t x = Some q \/ q = N.of_nat i /\ (In x a' \/ od' = Some x)) ->
  (forall x, t_get t' x = Some (N.of_nat i) -> In x a \/ od = Some x -> In x a' \/ od' = Some x) ->
  VB (t, cs) -> VB (t', upd cs i (a', od')).
Proof.
  intros t cs t' i a od a' od' Hi Hnew Hkeep HB x q Hx. cbn [fst snd] in *.
  assert (Hown : forall y, In y a' \/ od' = Some y -> exists j aj oj, N.of_nat i = N.of_nat j /\
            nth_error (upd cs i (a', od')) j = Some (aj, oj) /\ (In y aj \/ oj = Some y)).
  { intros y Hy. exists i, a', od'. rewrite (nth_upd Hi _ i), Nat.eqb_refl. auto. }
  destruct (Hnew x q Hx) as [Hold|[-> Hmine]]; [|apply Hown; exact Hmine].
  destruct (HB x q Hold) as [j [aj [oj [Hq [Hj Ho]]]]]. cbn [snd] in Hj. destruct (Nat.eq_dec j i) as [->|Hne].
  - subst q. rewrite Hi in Hj. inversion Hj; subst aj oj. apply Hown. apply Hkeep; assumption.
  - exists j, aj, oj. rewrite (nth_upd Hi _ j). apply Nat.eqb_neq in Hne. rewrite Hne. auto.
Qed.

Lemma VB_vstep : forall b v v', vstep b v v' -> VB v -> VB v'.
Proof.
  intros b v v' H HB. destruct H as [t cs i v t' v' Hi H|t cs].
  - destruct H as [a od c Hc|a1 c a2 od|a o _|od].
    + eapply VB_upd; [exact Hi| | |exact HB].
      * intros x q. rewrite get_insert. destruct (N.eqb_spec c x) as [->|_]; [|auto].
        intros Hq. inversion Hq. right. split; [reflexivity|]. left. apply in_or_app. right. left. reflexivity.
      * intros x _ [Hx|Hx]; [left; apply in_or_app|]; auto.
    + eapply VB_upd; [exact Hi| | |exact HB].
      * intros x q. rewrite get_remove. destruct (c =? x); [discriminate|auto].
      * intros x. rewrite get_remove. destruct (N.eqb_spec c x) as [->|Hne]; [discriminate|].
        intros _ [Hx|Hx]; [left|auto]. apply in_app_or in Hx. apply in_or_app.
        destruct Hx as [Hx|[Hx|Hx]]; [auto|contradiction|auto].
    + eapply VB_upd; [exact Hi| | |exact HB].
      * intros x q. rewrite get_insert. destruct (N.eqb_spec o x) as [->|_]; [|auto].
        intros Hq. inversion Hq. auto.
      * intros x _ [Hx|Hx]; [auto|discriminate].
    + eapply VB_upd; [exact Hi| | |exact HB].
      * intros x q. destruct od as [o|]; [|auto]. rewrite get_remove_if.
        destruct ((o =? x) && _); [discriminate|auto].
      * (* after the guarded drop the origin DCID is not routed to i: its entry went if it pointed to i *)
        intros x Hx [[]|Ho]. subst od. rewrite get_remove_if, N.eqb_refl in Hx. cbn [andb] in Hx.
        destruct (t_get t x) as [q'|]; [|discriminate].
        destruct (N.eqb_spec q' (N.of_nat i)) as [_|Hne]; [discriminate|congruence].
  - intros x q Hx. destruct (HB x q Hx) as [j [aj [oj [Hq [Hj Ho]]]]]. exists j, aj, oj.
    cbn [snd] in *. rewrite nth_error_app1 by (apply nth_error_Some; congruence). auto.
Qed.

Lemma VC_upd : forall t cs t' i a od a' od',
  nth_error cs i = Some (a, od) ->
  NoDup a' -> (forall x, In x a' -> t_get t' x = Some (N.of_nat i)) ->
  (forall x q, t_get t x = Some q -> q <> N.of_nat i -> t_get t' x = Some q) ->
  VC (t, cs) -> VC (t', upd cs i (a', od')).
Proof.
  intros t cs t' i a od a' od' Hi Hnd Hmine Hothers HC j aj oj Hj. cbn [fst snd] in *.
  rewrite (nth_upd Hi _ j) in Hj. destruct (Nat.eqb_spec j i) as [->|Hne].
  - inversion Hj; subst aj oj. auto.
  - destruct (HC j aj oj Hj) as [H1 H2]. split; [exact H1|]. intros x Hx. apply Hothers; [auto|lia].
Qed.

Lemma nodup_snoc : forall (l : list cid) c, NoDup l -> ~ In c l -> NoDup (l ++ [c]).
Proof. intros l c Hl Hc. apply (NoDup_Add (Add_app c l [])). rewrite app_nil_r. auto. Qed.

Lemma VC_vstep : forall v v', vstep false v v' -> VC v -> VC v'.
Proof.
  intros v v' H HC. destruct H as [t cs i v t' v' Hi H|t cs].
  - destruct H as [a od c Hc|a1 c a2 od|a o Ho|od]; destruct (HC _ _ _ Hi) as [Hnd Hr]; cbn [fst] in Hr.
    + eapply VC_upd; [exact Hi| | | |exact HC].
      * apply nodup_snoc; [exact Hnd|]. intros Hin. apply Hr in Hin. congruence.
      * intros x Hx. rewrite get_insert. destruct (N.eqb_spec c x) as [_|Hne]; [reflexivity|].
        apply in_app_or in Hx. destruct Hx as [Hx|[Hx|[]]]; [auto|contradiction].
      * intros x q Hx _. rewrite get_insert. destruct (N.eqb_spec c x) as [->|_]; congruence.
    + pose proof (NoDup_remove _ _ _ Hnd) as [Hnd' Hc].
      assert (Hsub : forall x, In x (a1 ++ a2) -> In x (a1 ++ c :: a2)).
      { intros x Hx. apply in_app_or in Hx. apply in_or_app. destruct Hx; [left|right; right]; assumption. }
      eapply VC_upd; [exact Hi|exact Hnd'| | |exact HC].
      * intros x Hx. rewrite get_remove. destruct (N.eqb_spec c x) as [->|_]; [contradiction|auto].
      * intros x q Hx Hq. rewrite get_remove. destruct (N.eqb_spec c x) as [<-|_]; [|exact Hx].
        rewrite Hr in Hx by (apply in_or_app; right; left; reflexivity). congruence.
    + eapply VC_upd; [exact Hi|exact Hnd| | |exact HC].
      * intros x Hx. rewrite get_insert. destruct (o =? x); auto.
      * intros x q Hx Hq. rewrite get_insert. destruct (N.eqb_spec o x) as [->|_]; [|exact Hx].
        contradiction Hq. exact (Ho eq_refl q Hx).
    + eapply VC_upd; [exact Hi|constructor|intros x []| |exact HC].
      intros x q Hx Hq. destruct od as [o|]; [|exact Hx]. rewrite get_remove_if.
      destruct (N.eqb_spec o x) as [->|_]; [|exact Hx]. rewrite Hx.
      destruct (N.eqb_spec q (N.of_nat i)); [contradiction|reflexivity].
  - intros j aj oj Hj. cbn [fst snd] in *. apply nth_error_snoc in Hj. destruct Hj as [Hj|[_ Hj]]; [eauto|].
    inversion Hj. split; [constructor|intros x []].
Qed.

Lemma view_nil : VB ([], []) /\ VC ([], []).
Proof. split; [intros x q H|intros [|i] a od H]; discriminate. Qed.

Lemma VB_vsteps : forall b v v', vsteps b v v' -> VB v -> VB v'.
Proof. induction 1; eauto using VB_vstep. Qed.

Lemma VC_vsteps : forall v v', vsteps false v v' -> VC v -> VC v'.
Proof. induction 1; eauto using VC_vstep. Qed.
