(* Structural invariant of Model/RemoteCid.v.

   [RPre s em] — [em] is every RETIRE_CONNECTION_ID sequence number emitted so far:
     p_al     the two deques have the same offset ([Aligned])
     p_cur    cursor = ready_cells.largest()
     p_perm   em ++ (sequence numbers held by the cells) is a permutation of 0 .. cursor-1:
              every number below the cursor is retired exactly once or held by exactly one cell
     p_idx    a stored ID sits at the index given by its sequence number
     p_nodup  a cell is in at most one of ready_cells / pending_cells, once
     p_valid  the cells in the two queues are in the store
     p_ready  the cell at index i of ready_cells is retired or its newest ID is number i
     p_cells  a retired cell holds nothing; an idle (not borrowed) cell holds at most one ID
   [Arranged s] — no stored ID waits at the cursor while a cell is pending.
   [RInv s em] — both; every operation of RemoteCids and of a path on its cell keeps it. *)
From Coq Require Import List NArith ZArith Lia Permutation.
From GQ Require Import Lib.Base Lib.Slice Model.RemoteCid Proofs.LocalCid Proofs.RemoteCid.
Import ListNotations.
Local Open Scope N_scope.

Definition aseqs (c : cell) : list N := map fst (a_alloc c).
Definition held (cs : list cell) : list N := flat_map aseqs cs.

Definition CellOk (c : cell) : Prop :=
  (a_retired c = true -> a_alloc c = []) /\
  (a_retired c = false -> a_using c = false -> (length (a_alloc c) <= 1)%nat).

Record RPre (s : rcids) (em : list N) : Prop := mkRPre {
  p_al : Aligned s;
  p_cur : r_cursor s = r_roff s + lenN (r_ready s);
  p_perm : Permutation (em ++ held (r_cells s)) (nseq 0 (N.to_nat (r_cursor s)));
  p_idx : forall i q id, nth_error (r_cids s) i = Some (Some (q, id)) -> q = r_coff s + N.of_nat i;
  p_nodup : NoDup (r_ready s ++ r_pending s);
  p_valid : forall p, In p (r_ready s ++ r_pending s) -> (p < length (r_cells s))%nat;
  p_ready : forall j p, nth_error (r_ready s) j = Some p ->
      a_retired (get_cell (r_cells s) p) = true \/
      exists id rest, a_alloc (get_cell (r_cells s) p) = (r_roff s + N.of_nat j, id) :: rest;
  p_cells : Forall CellOk (r_cells s) }.

Definition Arranged (s : rcids) : Prop :=
  r_pending s = [] \/ forall x, dq_get (r_coff s) (r_cids s) (r_cursor s) <> Some (Some x).

Definition RInv (s : rcids) (em : list N) : Prop := RPre s em /\ Arranged s.

Definition with_cells (s : rcids) (cs : list cell) : rcids :=
  mkR (r_coff s) (r_cids s) (r_roff s) (r_ready s) (r_pending s) (r_limit s) (r_cursor s) cs.

Ltac fields :=
  unfold Aligned in *;
  cbn [r_coff r_cids r_roff r_ready r_pending r_limit r_cursor r_cells inserted with_cells skip_turn assign_turn tl] in *.

Lemma get_upd_same : forall (cs : list cell) p v, (p < length cs)%nat -> get_cell (upd cs p v) p = v.
Proof. unfold get_cell. induction cs; destruct p; intros; cbn in *; try lia; auto. apply IHcs. lia. Qed.

Lemma get_upd_other : forall (cs : list cell) p q v, p <> q -> get_cell (upd cs p v) q = get_cell cs q.
Proof.
  unfold get_cell. induction cs; intros p q v H; destruct p; destruct q; cbn; auto; try congruence.
Qed.

(* also of a cell id outside the store: [cellX] is retired and holds nothing *)
Lemma get_cell_ok : forall cs p, Forall CellOk cs -> CellOk (get_cell cs p).
Proof.
  intros cs p H. unfold get_cell. destruct (nth_in_or_default p cs cellX) as [Hin| ->].
  - exact (proj1 (Forall_forall _ _) H _ Hin).
  - split; [reflexivity|discriminate].
Qed.

Lemma held_upd : forall cs p c' l l', (p < length cs)%nat ->
  Permutation (l ++ aseqs c') (l' ++ aseqs (get_cell cs p)) ->
  Permutation (l ++ held (upd cs p c')) (l' ++ held cs).
Proof.
  unfold get_cell. induction cs as [|c r IH]; intros p c' l l' H HP; [cbn in H; lia|].
  destruct p as [|p]; cbn [held flat_map upd nth length] in *.
  - rewrite !app_assoc. apply Permutation_app_tail. exact HP.
  - rewrite !(Permutation_app_swap_app _ (aseqs c)). apply Permutation_app_head. apply IH; [lia|exact HP].
Qed.

Lemma trim_spec : forall al al' fr, trim al = (al', fr) ->
  Permutation (fr ++ map fst al') (map fst al) /\ al' = firstn 1 al.
Proof.
  intros [|x r] al' fr H; inversion H; subst; split; try reflexivity.
  cbn [map]. rewrite map_rev, <- Permutation_rev. symmetry. apply Permutation_cons_append.
Qed.

Lemma assign_spec : forall c seq id c' fr,
  a_retired c = false -> cell_assign c seq id = (c', fr) ->
  Permutation (fr ++ aseqs c') (seq :: aseqs c) /\
  (exists rest, a_alloc c' = (seq, id) :: rest) /\ CellOk c'.
Proof.
  intros c seq id c' fr HR H. unfold cell_assign in H. destruct (a_using c) eqn:EU.
  - inversion H; subst. unfold aseqs, CellOk. cbn. split; [reflexivity|].
    split; [eexists; reflexivity|]. rewrite HR. split; intros; discriminate.
  - destruct (trim ((seq, id) :: a_alloc c)) as [al' fr0] eqn:ET. inversion H; subst.
    destruct (trim_spec _ _ _ ET) as [T1 ->]. unfold aseqs, CellOk. cbn [a_alloc a_retired a_using firstn].
    split; [exact T1|]. split; [eexists; reflexivity|].
    rewrite HR. split; intros; [discriminate|cbn; lia].
Qed.

(* what a path may do to its cell: clause by clause what p_perm, p_ready (two clauses) and p_cells need *)
Definition CellStep (c c' : cell) (fr : list N) : Prop :=
  Permutation (fr ++ aseqs c') (aseqs c) /\
  (a_retired c' = true \/ forall x rest, a_alloc c = x :: rest -> exists rest', a_alloc c' = x :: rest') /\
  (a_retired c = true -> a_retired c' = true) /\
  (CellOk c -> CellOk c').

Lemma CellStep_refl : forall c, CellStep c c [].
Proof. intros c. split; [reflexivity|split; [right; eauto|auto]]. Qed.

Lemma borrow_spec : forall c c' r, cell_borrow c = (c', r) ->
  CellStep c c' [] /\
  match r with
  | BRetired => a_retired c = true
  | BPending => a_retired c = false /\ a_alloc c = []
  | BCid id => a_retired c = false /\ exists q rest, a_alloc c = (q, id) :: rest
  end.
Proof.
  intros c c' r. unfold cell_borrow. destruct (a_retired c) eqn:ER.
  { intros H; inversion H; subst. split; [apply CellStep_refl|reflexivity]. }
  destruct (a_alloc c) as [|[q id] rest] eqn:EA; intros H; inversion H; subst.
  { split; [apply CellStep_refl|auto]. }
  split; [|eauto]. unfold CellStep, aseqs, CellOk. cbn [a_alloc a_retired a_using]. rewrite EA, ER.
  split; [reflexivity|split; [right; eauto|split; [auto|]]]. intros [K1 K2]. split; [exact K1|intros; discriminate].
Qed.

Lemma renew_spec : forall c c' fr, cell_renew c = (c', fr) -> CellStep c c' fr /\ a_using c' = false.
Proof.
  intros c c' fr. unfold cell_renew. destruct (trim (a_alloc c)) as [al' fr0] eqn:ET. intros H; inversion H; subst.
  destruct (trim_spec _ _ _ ET) as [T1 ->].
  split; [|reflexivity]. unfold CellStep, aseqs, CellOk. cbn [a_alloc a_retired a_using].
  split; [exact T1|split; [right; intros x rest Hx; rewrite Hx; cbn; eauto|split; [auto|]]].
  intros [K1 _]. split; [intros Hr; rewrite (K1 Hr); reflexivity|intros; rewrite firstn_length; lia].
Qed.

Lemma retire_spec : forall c c' fr, CellOk c -> cell_retire c = (c', fr) ->
  CellStep c c' fr /\ a_retired c' = true /\ a_alloc c' = [].
Proof.
  intros c c' fr [K1 K2]. unfold cell_retire. destruct (a_retired c) eqn:ER; intros H; inversion H; subst.
  - split; [apply CellStep_refl|auto].
  - split; [|auto]. unfold CellStep, aseqs, CellOk. cbn [a_alloc a_retired a_using map]. rewrite app_nil_r.
    split; [reflexivity|split; [left; reflexivity|split; [auto|]]]. intros _. split; [auto|intros; discriminate].
Qed.

Lemma arranged_with_cells : forall s cs, Arranged s -> Arranged (with_cells s cs).
Proof. intros s cs H. exact H. Qed.

Lemma path_inv : forall s em p c' fr,
  RInv s em -> (p < length (r_cells s))%nat -> CellStep (get_cell (r_cells s) p) c' fr ->
  RInv (with_cells s (upd (r_cells s) p c')) (em ++ fr).
Proof.
  intros s em p c' fr [[A1 A2 A3 A4 A5 A6 A7 A8] HA] Hp (HP & HK & HR & HC).
  split; [|exact (arranged_with_cells _ _ HA)].
  constructor; fields; auto.
  - rewrite <- A3. apply held_upd; [exact Hp|]. rewrite <- app_assoc. apply Permutation_app_head. exact HP.
  - intros q Hq. rewrite upd_length. auto.
  - intros j q Hq. destruct (Nat.eq_dec p q) as [->|Hne].
    + rewrite get_upd_same by assumption. destruct (A7 j q Hq) as [Hr|[id [rest Hal]]].
      * left. auto.
      * destruct HK as [HK|HK]; [left; assumption|]. right. destruct (HK _ _ Hal) as [rest' Hx]. eauto.
    + rewrite get_upd_other by assumption. auto.
  - apply Forall_upd; [assumption|]. apply HC, get_cell_ok, A8.
Qed.

Lemma borrow_inv : forall s em p s' r,
  RInv s em -> (p < length (r_cells s))%nat -> path_borrow s p = (s', r) -> RInv s' em.
Proof.
  intros s em p s' r HI Hp H. unfold path_borrow in H.
  destruct (cell_borrow (get_cell (r_cells s) p)) as [c' r0] eqn:EB. inversion H; subst.
  rewrite <- (app_nil_r em). exact (path_inv s em p c' [] HI Hp (proj1 (borrow_spec _ _ _ EB))).
Qed.

Lemma release_inv : forall s em p s' fr,
  RInv s em -> (p < length (r_cells s))%nat -> path_release s p = (s', fr) -> RInv s' (em ++ fr).
Proof.
  intros s em p s' fr HI Hp H. unfold path_release in H.
  destruct (cell_renew (get_cell (r_cells s) p)) as [c' fr0] eqn:EB. inversion H; subst.
  exact (path_inv s em p c' fr HI Hp (proj1 (renew_spec _ _ _ EB))).
Qed.

Lemma retire_inv : forall s em p s' fr,
  RInv s em -> (p < length (r_cells s))%nat -> path_retire s p = (s', fr) -> RInv s' (em ++ fr).
Proof.
  intros s em p s' fr HI Hp H. unfold path_retire in H.
  destruct (cell_retire (get_cell (r_cells s) p)) as [c' fr0] eqn:EB. inversion H; subst.
  exact (path_inv s em p c' fr HI Hp (proj1 (retire_spec _ _ _ (get_cell_ok _ p (p_cells _ _ (proj1 HI))) EB))).
Qed.

Lemma skip_turn_inv : forall s em p, RPre s em ->
  hd_error (r_pending s) = Some p -> a_retired (get_cell (r_cells s) p) = true -> RPre (skip_turn s) em.
Proof.
  intros [coff cids roff ready [|p' rest] limit cursor cells] em p [A1 A2 A3 A4 A5 A6 A7 A8] Hp _; [discriminate|].
  fields. constructor; fields; auto.
  - exact (NoDup_remove_1 _ _ _ A5).
  - intros q Hq. apply A6. apply in_app_or in Hq. apply in_or_app. destruct Hq; [left|right; right]; assumption.
Qed.

Lemma assign_turn_inv : forall s em p seq id c' fr, RPre s em ->
  hd_error (r_pending s) = Some p -> a_retired (get_cell (r_cells s) p) = false ->
  dq_get (r_coff s) (r_cids s) (r_cursor s) = Some (Some (seq, id)) ->
  cell_assign (get_cell (r_cells s) p) seq id = (c', fr) -> RPre (assign_turn s p c') (em ++ fr).
Proof.
  intros [coff cids roff ready [|p' rest] limit cursor cells] em p seq id c' fr HP Hp ER EG EA; [discriminate|].
  injection Hp as ->. fields.
  destruct (assign_spec _ _ _ _ _ ER EA) as (S1 & [rest0 S3] & S4).
  destruct HP as [A1 A2 A3 A4 A5 A6 A7 A8]; fields.
  assert (seq = cursor).
  { unfold dq_get in EG. destruct (N.ltb_spec cursor coff); [discriminate|]. apply A4 in EG. lia. }
  subst seq.
  assert (Hp : (p < length cells)%nat) by (apply A6; apply in_or_app; right; left; reflexivity).
  constructor; fields; auto.
  - rewrite A2, lenN_app. change (lenN [p]) with 1. lia.
  - replace (N.to_nat (cursor + 1)) with (S (N.to_nat cursor)) by lia.
    rewrite nseq_snoc, <- A3, <- Permutation_cons_append. replace (0 + N.of_nat (N.to_nat cursor)) with cursor by lia.
    apply (held_upd cells p c' _ (cursor :: em) Hp). rewrite <- app_assoc, S1. symmetry. apply Permutation_middle.
  - rewrite <- app_assoc. exact A5.
  - intros q Hq. rewrite upd_length. apply A6. rewrite <- app_assoc in Hq. exact Hq.
  - intros j q Hq. apply nth_error_snoc in Hq. destruct Hq as [Hq|[-> ->]].
    + rewrite get_upd_other; [exact (A7 _ _ Hq)|]. intros <-. apply nth_error_In in Hq.
      apply NoDup_remove_2 in A5. apply A5, in_or_app. left; exact Hq.
    + rewrite get_upd_same by assumption. right. exists id, rest0. rewrite S3, A2. reflexivity.
  - apply Forall_upd; assumption.
Qed.

Lemma arrange_inv : forall s em s' fr,
  RPre s em -> arrange s = (s', fr) -> RInv s' (em ++ fr).
Proof. exact (arrange_rule RPre skip_turn_inv assign_turn_inv). Qed.

Lemma insert_inv : forall s em seq id, RPre s em -> r_coff s <= seq -> RPre (inserted s seq id) em.
Proof.
  intros s em seq id [A1 A2 A3 A4 A5 A6 A7 A8] Hge.
  constructor; fields; auto.
  intros i q id' H. apply dq_insert_get in H. destruct H as [H|[-> H]]; [eauto|].
  inversion H; subst. lia.
Qed.

Lemma nseq_range : forall a b, nseq 0 (N.to_nat (N.max a b)) = nseq 0 (N.to_nat a) ++ nrange a b.
Proof.
  intros a b. unfold nrange. replace (N.to_nat (N.max a b)) with (N.to_nat a + N.to_nat (b - a))%nat by lia.
  rewrite nseq_app. f_equal. f_equal. lia.
Qed.

Lemma nodup_filter_app : forall (f : nat -> bool) a b, NoDup (a ++ b) -> NoDup (filter f a ++ b).
Proof.
  induction a as [|x r IH]; intros b H; cbn [filter app] in *; [assumption|].
  inversion H; subst. destruct (f x).
  - constructor; [|apply IH; assumption]. intro Hin. apply H2. apply in_app_or in Hin.
    apply in_or_app. destruct Hin as [Hin|Hin]; [left; apply filter_In in Hin; tauto|right; assumption].
  - apply IH. assumption.
Qed.

(* cells popped from the front of one queue and, filtered, pushed to the back of the other *)
Lemma requeue : forall (f : nat -> bool) a b c, NoDup ((a ++ b) ++ c) ->
  NoDup (b ++ c ++ filter f a) /\ incl (b ++ c ++ filter f a) ((a ++ b) ++ c).
Proof.
  intros f a b c H. split.
  - rewrite <- app_assoc in H. apply (nodup_filter_app f) in H.
    eapply Permutation_NoDup; [|exact H]. rewrite (app_assoc b c). apply Permutation_app_comm.
  - intros x. rewrite !in_app_iff, filter_In. tauto.
Qed.

(* [tomb] must not pass the end of cid_deque, or drain_to would stop short of it and the two offsets part *)
Lemma rpt_inv : forall s em tomb s' fr,
  RPre s em -> tomb <= r_coff s + lenN (r_cids s) ->
  retire_prior_to s tomb = (s', fr) -> RPre s' (em ++ fr).
Proof.
  intros s em tomb s' fr HP Hok H. rewrite rpt_eq in H.
  destruct (N.ltb_spec (r_roff s) tomb) as [Hlt|_].
  2:{ injection H as <- <-. rewrite app_nil_r. exact HP. }
  destruct HP as [A1 A2 A3 A4 A5 A6 A7 A8]. unfold Aligned in A1. cbn zeta in H. rewrite <- A2 in H.
  rewrite (N.max_l tomb (r_coff s)), (N.min_l tomb) in H by lia.
  set (k := N.min (r_cursor s) tomb - r_roff s) in H.
  injection H as <- <-.
  rewrite <- (takeN_dropN k (r_ready s)) in A5, A6.
  destruct (requeue (fun p => negb (a_retired (get_cell (r_cells s) p))) _ _ _ A5) as [Hnd Hincl].
  constructor; fields; auto.
  - rewrite lenN_dropN. unfold k. lia.
  - (* the numbers from the cursor up to tomb are retired unused *)
    rewrite nseq_range, <- A3, <- !app_assoc. apply Permutation_app_head. apply Permutation_app_comm.
  - intros i q id Hn. rewrite nth_error_dropN in Hn. apply A4 in Hn. lia.
  - (* a cell left in ready_cells proves that tomb is not beyond the cursor *)
    intros j p Hj. rewrite nth_error_dropN in Hj.
    assert (N.to_nat k + j < length (r_ready s))%nat by (apply nth_error_Some; congruence).
    apply A7 in Hj. replace (tomb + N.of_nat j) with (r_roff s + N.of_nat (N.to_nat k + j)); [exact Hj|].
    unfold k, lenN in *. lia.
Qed.

Lemma processed_inv : forall s em seq rpt id s' fr,
  RPre s em -> rpt <= seq -> r_coff s <= seq -> processed s seq rpt id = (s', fr) -> RInv s' (em ++ fr).
Proof.
  intros s em seq rpt id s' fr HP Hrs Hge H.
  destruct (processed_stages _ _ _ _ _ _ H) as (s2 & f1 & f2 & E2 & E3 & ->). rewrite app_assoc. eapply arrange_inv; [|exact E3].
  eapply rpt_inv; [exact (insert_inv _ _ seq id HP Hge)| |exact E2]. rewrite inserted_end by assumption. lia.
Qed.

Lemma recv_inv : forall chk post s em seq rpt id s' fr res,
  RInv s em -> rpt <= seq -> recv_new_cid chk post s seq rpt id = (s', fr, res) -> RInv s' (em ++ fr).
Proof.
  intros chk post s em seq rpt id s' fr res HI Hrs H.
  destruct (recv_cases _ _ _ _ _ _ _ _ _ H) as [(_ & -> & ->)|(_ & Hge & H')].
  - rewrite app_nil_r. exact HI.
  - exact (processed_inv _ _ _ _ _ _ _ (proj1 HI) Hrs Hge H').
Qed.

Lemma get_cell_app1 : forall cs c p, (p < length cs)%nat -> get_cell (cs ++ [c]) p = get_cell cs p.
Proof. intros. unfold get_cell. apply app_nth1. assumption. Qed.

Lemma apply_inv : forall s em s' p fr,
  RPre s em -> apply_dcid s = (s', p, fr) -> RInv s' (em ++ fr).
Proof.
  intros s em s' p fr [A1 A2 A3 A4 A5 A6 A7 A8] H. unfold apply_dcid in H. destruct (arrange _) as [s2 f2] eqn:E.
  inversion H; subst. clear H.
  assert (CellOk cell0) by (split; cbn; intros; [reflexivity|lia]).
  eapply arrange_inv; [|exact E].
  - constructor; fields; auto.
    + unfold held. rewrite flat_map_app. cbn [flat_map aseqs cell0 a_alloc map app]. rewrite app_nil_r. assumption.
    + rewrite app_assoc. eapply Permutation_NoDup; [apply Permutation_cons_append|]. constructor; [|assumption].
      intro Hin. apply A6 in Hin. lia.
    + intros q Hq. rewrite app_length. cbn [length]. rewrite app_assoc in Hq. apply in_app_or in Hq.
      destruct Hq as [Hq|[Hq|[]]]; [apply A6 in Hq; lia|lia].
    + intros j q Hq. assert (q < length (r_cells s))%nat.
      { apply A6. apply in_or_app. left. eapply nth_error_In; eassumption. }
      rewrite get_cell_app1 by assumption. auto.
    + apply Forall_app. split; [assumption|]. constructor; [assumption|constructor].
Qed.

Lemma arrange_loop_none : forall pend coff cids cursor cells ready,
  (forall x, dq_get coff cids cursor <> Some (Some x)) ->
  exists pend', arrange_loop pend coff cids cursor cells ready = (pend', cursor, cells, ready, []).
Proof.
  induction pend as [|p rest IH]; intros coff cids cursor cells ready Hn; cbn [arrange_loop].
  - eexists; reflexivity.
  - destruct (a_retired (get_cell cells p)); [apply IH; assumption|].
    destruct (dq_get coff cids cursor) as [[[q id]|]|] eqn:E; [exfalso; eapply Hn; reflexivity| |]; eexists; reflexivity.
Qed.

Lemma get_cell_repeat : forall n p, (p < n)%nat -> get_cell (repeat cell0 n) p = cell0.
Proof. unfold get_cell. induction n; destruct p; intros; cbn; try lia; auto. apply IHn. lia. Qed.

Lemma held_repeat : forall n, held (repeat cell0 n) = [].
Proof. induction n; cbn; auto. Qed.

(* [remote_empty] after k paths have applied: k fresh cells, all pending *)
Definition pre_state (limit : N) (k : nat) : rcids := mkR 0 [] 0 [] (seq 0 k) limit 0 (repeat cell0 k).

Lemma apply_n_pre_state : forall n k limit, apply_n n (pre_state limit k) = pre_state limit (k + n).
Proof.
  induction n; intros k limit.
  - rewrite Nat.add_0_r. reflexivity.
  - cbn [apply_n]. unfold apply_dcid, arrange, pre_state.
    fields.
    rewrite repeat_length.
    change [k] with [(0 + k)%nat]. rewrite <- seq_S, <- repeat_cons.
    change (cell0 :: repeat cell0 k) with (repeat cell0 (S k)).
    change (seq 0 (S k)) with (0%nat :: seq 1 k) at 1. cbn [arrange_loop].
    rewrite get_cell_repeat by lia. cbn [a_retired cell0 dq_get N.ltb N.compare nth_error N.sub N.to_nat].
    change (0%nat :: seq 1 k) with (seq 0 (S k)).
    replace (k + S n)%nat with (S k + n)%nat by lia. apply IHn.
Qed.

Lemma remove_first_in : forall p l x, In x (remove_first p l) -> In x l.
Proof.
  induction l as [|y r IH]; intros x H; cbn [remove_first] in H; [assumption|].
  destruct (Nat.eqb y p); [right; assumption|]. destruct H; [left; assumption|right; auto].
Qed.

Lemma remove_first_nodup : forall p l, NoDup l -> NoDup (p :: remove_first p l).
Proof.
  induction l as [|y r IH]; intros H; cbn [remove_first].
  - constructor; [intros []|constructor].
  - inversion H; subst. destruct (Nat.eqb_spec y p) as [->|Hne]; [assumption|].
    specialize (IH H3). inversion IH; subst. constructor.
    + intros [E|Hin]; [congruence|contradiction].
    + constructor; [|assumption]. intro Hin. apply remove_first_in in Hin. contradiction.
Qed.

Lemma init_inv : forall limit npre hs id0, (hs < npre)%nat ->
  RInv (remote_init limit npre hs id0) [].
Proof.
  intros limit npre hs id0 Hhs. unfold remote_init.
  change (remote_empty limit) with (pre_state limit 0). rewrite apply_n_pre_state. cbn [Nat.add].
  unfold apply_initial_dcid, pre_state. fields.
  set (s1 := mkR 0 [Some (0, id0)] 0 [] (hs :: remove_first hs (seq 0 npre)) limit 0 (repeat cell0 npre)).
  assert (HP1 : RPre s1 []).
  { constructor; unfold s1; fields; auto.
    - rewrite held_repeat. reflexivity.
    - intros i q id H. destruct i; cbn in H; [inversion H; reflexivity|destruct i; discriminate].
    - cbn [app]. apply remove_first_nodup. apply seq_NoDup.
    - cbn [app]. intros p [<-|Hp]; rewrite repeat_length; [assumption|].
      apply remove_first_in in Hp. apply in_seq in Hp. lia.
    - intros j p H. destruct j; discriminate.
    - apply Forall_forall. intros c Hc. apply repeat_spec in Hc. subst c. split; cbn; intros; [reflexivity|lia]. }
  destruct (arrange s1) as [s2 fr] eqn:EA. cbn [fst].
  assert (Hfr : fr = []).
  { unfold arrange, s1 in EA. cbn [r_coff r_cids r_roff r_ready r_pending r_limit r_cursor r_cells arrange_loop] in EA.
    rewrite get_cell_repeat in EA by assumption.
    cbn [a_retired cell0 dq_get N.ltb N.compare nth_error N.sub N.to_nat cell_assign a_using a_alloc trim rev map app] in EA.
    match type of EA with context [arrange_loop ?a ?b ?c ?d ?e ?f] =>
      destruct (arrange_loop_none a b c d e f) as [pend' HL] end.
    { intros x. unfold dq_get. cbn. discriminate. }
    rewrite HL in EA. inversion EA; reflexivity. }
  subst fr. apply (arrange_inv _ _ _ _ HP1) in EA. exact EA.
Qed.
