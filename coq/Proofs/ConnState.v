(* Proofs about Model/ConnState.v: monotonicity of the state word and the set-once discipline of
   the two cells, for every interleaving of any number of racing calls. *)
From Coq Require Import List NArith Bool Lia.
From GQ Require Import Model.ConnState.
Import ListNotations.
Local Open Scope N_scope.

Lemma codes :
  attempted_from = 0 /\ attempted_code = 1 /\ confirmed_code = 6 /\ closing_code = 7 /\
  draining_code = 8 /\ closed_code = 9.
Proof. vm_compute. repeat split; reflexivity. Qed.

Lemma skip_test : forall old, old < draining_code ->
  cstate_beq (old_state old) draining_skip_state = (old =? closing_code).
Proof.
  intros old H. destruct codes as (_ & _ & _ & Hc & Hd & _). rewrite Hd in H. rewrite Hc.
  assert (old = 0 \/ old = 1 \/ old = 2 \/ old = 3 \/ old = 4 \/ old = 5 \/ old = 6 \/ old = 7) as D by lia.
  destruct D as [-> | [-> | [-> | [-> | [-> | [-> | [-> | ->]]]]]]]; reflexivity.
Qed.

(* the code that a call's update() moves the word to *)
Definition tcode (c : call) : option N :=
  match target c with Some s => encode s | None => None end.

(* the first step: try_entry_attempted is one compare_exchange, every other call begins with the load *)
Lemma tstep_try_attempted : forall sh, tstep CTryAttempted PStart sh =
  if word sh =? attempted_from then (PDone (Some attempted_from), mksh attempted_code (hs sh) (term sh))
  else (PDone None, sh).
Proof. reflexivity. Qed.

Lemma tstep_start : forall c sh, c <> CTryAttempted ->
  tstep c PStart sh = match tcode c with Some new => (PLoop new (word sh), sh) | None => (PPanic, sh) end.
Proof. destruct c; [contradiction|reflexivity..]. Qed.

Lemma try_attempted_dec : forall c, c = CTryAttempted \/ c <> CTryAttempted.
Proof. destruct c; auto; right; discriminate. Qed.

(* the cell a call stores into once its compare_exchange from `old` has succeeded: Some None = handshaked,
   Some (Some e) = the terminating error e; enter_draining leaves the error of an earlier enter_closing alone *)
Definition sets (c : call) (old : N) : option (option err) :=
  match c with
  | CHandshaked => Some None
  | CClosing e => Some (Some e)
  | CDraining e => if cstate_beq (old_state old) draining_skip_state then None else Some (Some e)
  | _ => None
  end.

(* What one step does: where the call is afterwards and what it has written.  The proofs below work from this
   list and do not unfold `tstep`. *)
Inductive does (c : call) (sh : shared) : pc -> pc -> shared -> Prop :=
| d_try_won : c = CTryAttempted -> word sh = attempted_from ->
    does c sh PStart (PDone (Some attempted_from)) (mksh attempted_code (hs sh) (term sh))
| d_try_lost : c = CTryAttempted -> does c sh PStart (PDone None) sh
| d_load new : tcode c = Some new -> does c sh PStart (PLoop new (word sh)) sh
| d_nocode : c <> CTryAttempted -> tcode c = None -> does c sh PStart PPanic sh
| d_reject new old : new <= old -> does c sh (PLoop new old) (PDone None) sh
| d_cas new : word sh < new ->
    does c sh (PLoop new (word sh)) (after_cas c (word sh)) (mksh new (hs sh) (term sh))
| d_retry new old : does c sh (PLoop new old) (PLoop new (word sh)) sh
| d_set_none old : sets c old = None -> does c sh (PSet old) (PDone (Some old)) sh
| d_set_hs old : sets c old = Some None -> hs sh = false ->
    does c sh (PSet old) (PDone (Some old)) (mksh (word sh) true (term sh))
| d_set_term old e : sets c old = Some (Some e) -> term sh = None ->
    does c sh (PSet old) (PDone (Some old)) (mksh (word sh) (hs sh) (Some e))
| d_expect_hs old : sets c old = Some None -> hs sh = true -> does c sh (PSet old) PPanic sh
| d_expect_term old e : sets c old = Some (Some e) -> term sh <> None -> does c sh (PSet old) PPanic sh
| d_done p : finished (c, p) = true -> does c sh p p sh.

Lemma tstep_does : forall c p sh, does c sh p (fst (tstep c p sh)) (snd (tstep c p sh)).
Proof.
  intros c p sh. destruct p as [| new old | old | r |]; [| |cbn [tstep]|apply d_done; reflexivity..].
  - destruct (try_attempted_dec c) as [->|Hc].
    + rewrite tstep_try_attempted. destruct (N.eqb_spec (word sh) attempted_from); [apply d_try_won|apply d_try_lost]; auto.
    + rewrite (tstep_start _ _ Hc). destruct (tcode c) eqn:E; [apply d_load|apply d_nocode]; auto.
  - cbn [tstep]. unfold update_rejects. destruct (N.leb_spec new old); [apply d_reject; assumption|].
    destruct (N.eqb_spec (word sh) old) as [<-|W]; [apply d_cas; assumption|apply d_retry].
  - destruct c; try (apply d_set_none; reflexivity).
    + destruct (hs sh) eqn:E; cbn [fst snd]; [apply d_expect_hs|apply d_set_hs]; auto.
    + destruct (term sh) eqn:E; cbn [fst snd]; [eapply d_expect_term|apply d_set_term]; (reflexivity || congruence).
    + destruct (cstate_beq (old_state old) draining_skip_state) eqn:Es;
        [apply d_set_none; cbn; rewrite Es; reflexivity|].
      destruct (term sh) eqn:E; cbn [fst snd]; [eapply d_expect_term|apply d_set_term];
        cbn [sets]; rewrite ?Es; (reflexivity || congruence).
Qed.

Definition sh_le (sh sh' : shared) : Prop :=
  word sh <= word sh' /\ (hs sh = true -> hs sh' = true) /\ (forall e, term sh = Some e -> term sh' = Some e).

Lemma sh_le_refl : forall sh, sh_le sh sh.
Proof. intro sh. repeat split; auto. lia. Qed.
#[local] Hint Resolve sh_le_refl : core.

Lemma tstep_le : forall c p sh, sh_le sh (snd (tstep c p sh)).
Proof.
  (* four steps write: two move the word up, two fill an empty cell *)
  intros c p sh. destruct (tstep_does c p sh); auto; repeat split; cbn; auto; try lia; try congruence.
  destruct codes as (C0 & C1 & _). lia.
Qed.

Lemma grun_app : forall s1 s2 g, grun g (s1 ++ s2) = grun (grun g s1) s2.
Proof. intros. unfold grun. apply fold_left_app. Qed.

Lemma grun_le : forall sched g, sh_le (g_sh g) (g_sh (grun g sched)).
Proof.
  induction sched as [|i rest IH]; intros g; cbn [grun fold_left]; auto.
  assert (S : sh_le (g_sh g) (g_sh (gstep g i))).
  { unfold gstep. destruct (nth_error (g_tasks g) i) as [[c p]|]; auto.
    destruct (enabled c p (g_sh g)); auto.
    pose proof (tstep_le c p (g_sh g)) as H. destruct (tstep c p (g_sh g)). exact H. }
  destruct S as (S1 & S2 & S3), (IH (gstep g i)) as (I1 & I2 & I3). unfold grun in *.
  repeat split; auto. lia.
Qed.

Definition legal_word (w : N) : Prop := w = initial_word \/ exists s, encode s = Some w.

Lemma tstep_legal : forall c p sh,
  (match p with PLoop new _ => exists s, encode s = Some new | _ => True end) ->
  legal_word (word sh) ->
  legal_word (word (snd (tstep c p sh))) /\
  (match fst (tstep c p sh) with PLoop new _ => exists s, encode s = Some new | _ => True end).
Proof.
  intros c p sh. destruct (tstep_does c p sh) as [| |new E| | |new Hlt| | | | | | |p F]; intros Hp Hw; cbn [word]; auto.
  - split; [right; exists attempted_state; reflexivity|exact I].
  - split; [exact Hw|]. unfold tcode in E. destruct (target c) as [s|]; [eauto|discriminate].
  - split; [right; exact Hp|]. destruct c; exact I.
Qed.

Fixpoint cnt (f : task -> nat) (l : list task) : nat :=
  match l with [] => O | t :: r => (f t + cnt f r)%nat end.

Lemma cnt_nth : forall f l i y, nth_error l i = Some y ->
  exists R, cnt f l = (R + f y)%nat /\ forall x, cnt f (set_nth l i x) = (R + f x)%nat.
Proof.
  induction l as [|h t IH]; intros [|i] y H; cbn in *; try discriminate.
  - injection H as ->. exists (cnt f t). split; [|intro x]; lia.
  - destruct (IH _ _ H) as (R & E & S). exists (f h + R)%nat. split; [|intro x; rewrite S]; lia.
Qed.

Lemma Forall_set_nth : forall (P : task -> Prop) l i x, Forall P l -> P x -> Forall P (set_nth l i x).
Proof.
  induction l as [|h t IH]; intros [|i] x Hl Hx; cbn; auto; inversion Hl; subst; constructor; auto.
Qed.

Lemma Forall_nth : forall (P : task -> Prop) l i y, Forall P l -> nth_error l i = Some y -> P y.
Proof. intros P l i y Hl Hn. rewrite Forall_forall in Hl. apply Hl. eapply nth_error_In; eauto. Qed.

(* a task between its compare_exchange and its SetOnce::set *)
Definition tsetter (t : task) : nat :=
  match snd t with PSet old => match sets (fst t) old with Some (Some _) => 1 | _ => 0 end | _ => 0 end.
Definition hsetter (t : task) : nat :=
  match snd t with PSet old => match sets (fst t) old with Some None => 1 | _ => 0 end | _ => 0 end.

(* what a program counter promises: the loop carries the call's own code, and the Terminated event comes
   after the closing code; no task has panicked *)
Definition twf (sh : shared) (t : task) : Prop :=
  match snd t with
  | PLoop new old =>
    tcode (fst t) = Some new /\
    (match fst t with CTerminated => closing_code <= word sh | _ => True end)
  | PPanic => False
  | _ => True
  end.

(* counters, each a function of one cell alone: a step that leaves a cell untouched leaves its
   counter the same term *)
Definition tn (t : option err) : nat := match t with Some _ => 1 | None => 0 end.
Definition hn (h : bool) : nat := if h then 1 else 0.
Definition reached (k w : N) : nat := if k <=? w then 1 else 0.

Lemma reached_spec : forall k w, (w < k /\ reached k w = O) \/ (k <= w /\ reached k w = 1%nat).
Proof. intros k w. unfold reached. destruct (N.leb_spec k w); auto. Qed.

(* the system as one task sees it: R pending term-setters and R2 pending hs-setters among the others.
   Once the word has reached the closing code exactly one of {a pending setter, the cell} accounts for
   the terminating error; the handshaked cell has at most one, and none before the confirmed code. *)
Definition counts (R R2 : nat) (sh : shared) (t : task) : Prop :=
  twf sh t /\
  (R + tsetter t + tn (term sh) = reached closing_code (word sh))%nat /\
  (R2 + hsetter t + hn (hs sh) <= reached confirmed_code (word sh))%nat.

Record Inv (g : gstate) : Prop := mkInv {
  inv_wf : Forall (fun t => wf_call (fst t) = true) (g_tasks g);
  inv_twf : Forall (twf (g_sh g)) (g_tasks g);
  inv_term : (cnt tsetter (g_tasks g) + tn (term (g_sh g)) = reached closing_code (word (g_sh g)))%nat;
  inv_hs : (cnt hsetter (g_tasks g) + hn (hs (g_sh g)) <= reached confirmed_code (word (g_sh g)))%nat }.

Lemma twf_mono : forall sh sh' t, word sh <= word sh' -> twf sh t -> twf sh' t.
Proof.
  intros sh sh' [c p] Hle H. unfold twf in *. cbn [fst snd] in *. destruct p; auto.
  destruct H as [H1 H2]. split; auto. destruct c; auto. lia.
Qed.

Lemma tcode_wf : forall c new, wf_call c = true -> tcode c = Some new ->
  match c with
  | CTryAttempted => False
  | CUpdate _ => new < closing_code
  | CTerminated => new = closed_code
  | CHandshaked => new = confirmed_code
  | CClosing _ => new = closing_code
  | CDraining _ => new = draining_code
  end.
Proof.
  intros c new Hwf H. destruct c; unfold tcode in H; cbn [target] in H.
  - discriminate.
  - cbn [wf_call] in Hwf. rewrite H in Hwf. apply N.ltb_lt. exact Hwf.
  - unfold closed_code, code_or0. rewrite H. reflexivity.
  - unfold confirmed_code, code_or0. rewrite H. reflexivity.
  - unfold closing_code, code_or0. rewrite H. reflexivity.
  - unfold draining_code, code_or0. rewrite H. reflexivity.
Qed.

Lemma tcode_some : forall c, wf_call c = true -> c <> CTryAttempted -> exists new, tcode c = Some new.
Proof.
  intros c Hwf Hc. destruct c; [contradiction| |eexists; reflexivity..].
  unfold tcode. cbn [wf_call target] in *. destruct (encode s); [eauto|discriminate].
Qed.

Lemma tstep_effect : forall c p sh R R2,
  wf_call c = true -> enabled c p sh = true -> counts R R2 sh (c, p) ->
  counts R R2 (snd (tstep c p sh)) (c, fst (tstep c p sh)).
Proof.
  intros c p sh R R2 Hwf Hen. destruct codes as (_ & _ & C6 & C7 & C8 & C9).
  pose proof (reached_spec closing_code (word sh)). pose proof (reached_spec confirmed_code (word sh)).
  destruct (tstep_does c p sh) as [-> W| |new E|Hc E| |new Hlt| |old E|old E Hh0|old e E Ht0|old E Hh1|old e E Ht1|];
    unfold counts; cbn [twf tsetter hsetter fst snd]; intros (Htw & Ht & Hh); auto.
  - (* try_entry_attempted won: the word moves from one code below the confirmed code to another *)
    rewrite W in Ht, Hh. exact (conj I (conj Ht Hh)).
  - (* the load; the Terminated event is enabled only from the closing code on *)
    split; [|auto]. split; [exact E|]. destruct c; try exact I. apply N.leb_le, Hen.
  - destruct (tcode_some c Hwf Hc) as [new E']. congruence.
  - (* the compare_exchange succeeded: the word moves up to new, and whoever takes it across the closing code
       (the confirmed code, for enter_handshaked) is the one to set the cell *)
    destruct Htw as [Htc Hg]. pose proof (tcode_wf c new Hwf Htc) as Hnew.
    pose proof (reached_spec closing_code new). pose proof (reached_spec confirmed_code new).
    destruct c; try contradiction; cbn [after_cas twf tsetter hsetter sets fst snd word hs term].
    5: rewrite skip_test by lia; destruct (N.eqb_spec (word sh) closing_code).
    all: repeat apply conj; auto; lia.
  - rewrite E in *. auto.
  - (* this task is the one pending hs-setter *)
    rewrite E, Hh0 in *. cbn [word hs term hn] in *. repeat split; auto; lia.
  - (* this task is the one pending term-setter *)
    rewrite E, Ht0 in *. cbn [word hs term tn] in *. repeat split; auto; lia.
  - (* no expect() fires: the cell of the one pending setter is still unset *)
    rewrite E, Hh1 in Hh. cbn [hn] in Hh. lia.
  - rewrite E in Ht. destruct (term sh); [cbn [tn] in Ht; lia|congruence].
Qed.

Lemma inv_init : forall calls, Forall (fun c => wf_call c = true) calls -> Inv (g_init calls).
Proof.
  intros calls H. unfold g_init.
  assert (A : forall f, (forall c, f (c, PStart) = O) -> cnt f (map (fun c => (c, PStart)) calls) = O).
  { intros f Hf. induction calls as [|c r IH]; cbn; auto. rewrite Hf. inversion H; subst. rewrite IH; auto. }
  constructor; cbn [g_sh g_tasks].
  - rewrite Forall_map. exact H.
  - rewrite Forall_map. apply Forall_forall. intros c _. exact I.
  - rewrite A by (intros; reflexivity). reflexivity.
  - rewrite A by (intros c; destruct c; reflexivity). cbn. lia.
Qed.

Lemma inv_step : forall g i, Inv g -> Inv (gstep g i).
Proof.
  intros g i [Hwf Htw Ht Hh]. unfold gstep.
  destruct (nth_error (g_tasks g) i) as [[c p]|] eqn:En; [|constructor; auto].
  destruct (enabled c p (g_sh g)) eqn:Een; [|constructor; auto].
  pose proof (Forall_nth _ _ _ _ Hwf En) as Wc. cbn [fst] in Wc.
  pose proof (Forall_nth _ _ _ _ Htw En) as Tc.
  destruct (cnt_nth tsetter _ _ _ En) as (R & Q1 & S1), (cnt_nth hsetter _ _ _ En) as (R2 & Q2 & S2).
  rewrite Q1 in Ht. rewrite Q2 in Hh.
  pose proof (tstep_effect c p (g_sh g) R R2 Wc Een (conj Tc (conj Ht Hh))) as (A1 & A2 & A3).
  pose proof (tstep_le c p (g_sh g)) as [Hm _].
  destruct (tstep c p (g_sh g)) as [p' sh']. cbn [fst snd] in *.
  constructor; cbn [g_sh g_tasks]; rewrite ?S1, ?S2; auto using Forall_set_nth.
  apply Forall_set_nth; auto. eapply Forall_impl; [|exact Htw]. intros t. apply twf_mono. exact Hm.
Qed.

Lemma inv_run : forall sched g, Inv g -> Inv (grun g sched).
Proof.
  induction sched as [|i r IH]; intros g H; cbn [grun fold_left]; auto.
  apply IH. apply inv_step. exact H.
Qed.

Lemma quiescent_no_setter : forall sh l,
  forallb (fun t => finished t || negb (enabled (fst t) (snd t) sh)) l = true -> cnt tsetter l = O.
Proof.
  induction l as [|[c p] r IH]; cbn [forallb cnt]; auto. intros H.
  apply andb_true_iff in H. destruct H as [H1 H2]. rewrite (IH H2).
  destruct p; cbn in *; auto. destruct c; cbn in H1; discriminate.
Qed.

Lemma run_to_end_S : forall k c p sh, run_to_end (S k) c p sh =
  match p with
  | PDone _ | PPanic => (p, sh)
  | _ => let '(p', sh') := tstep c p sh in run_to_end k c p' sh'
  end.
Proof. reflexivity. Qed.

Lemma run_to_end_done : forall n c r sh, run_to_end n c (PDone r) sh = (PDone r, sh).
Proof. destruct n; reflexivity. Qed.

(* update() of a state with a table row: the load, then one compare_exchange, which succeeds because
   nothing runs in between.  Stated for a fuel with a variable tail, so that the interpreter is
   unfolded three times and no further. *)
Lemma update_run : forall n s sh k, encode s = Some k ->
  run_to_end (S (S (S n))) (CUpdate s) PStart sh =
  if update_rejects k (word sh) then (PDone None, sh)
  else (PDone (Some (word sh)), mksh k (hs sh) (term sh)).
Proof.
  intros n s sh k E. rewrite run_to_end_S. cbn [tstep target]. rewrite E.
  rewrite run_to_end_S. cbn [tstep]. destruct (update_rejects k (word sh)).
  - apply run_to_end_done.
  - rewrite N.eqb_refl. apply run_to_end_done.
Qed.

(* a racing pair: local close vs the peer's CONNECTION_CLOSE, the calls of the Example
   c17_error_once_nonvacuous in Properties/C17.v *)
Definition race2 (e1 e2 : err) : list call := [CClosing e1; CDraining e2].
