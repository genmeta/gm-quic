(* C20 — proofs about the telemetry model (Model/QlogSpan.v): logging a packet never panics, whatever the
   exporter, the receiver's lifetime and the payload; what the dispatcher is handed does not depend on the
   exporter; nothing reaches anybody unless the exporter passes the scheme and somebody listens; narrowed
   fields are in range. *)
From Coq Require Import List ZArith Bool.
From GQ Require Import Model.QlogSpan Proofs.FramesTotal.
Import ListNotations.
Local Open Scope Z_scope.

(* [checked] of FramesTotal.v, under the name the C20 statements use *)
Definition frame_valid (f : frame) : Prop :=
  match f with Ack l _ fr rs _ => ack_valid l fr rs = true | _ => True end.

Lemma be_frame_valid p bs c f t : be_frame p bs = FOk c f t -> frame_valid f.
Proof. exact (be_frame_checked p bs c f t). Qed.

Lemma read_frames_valid : forall fuel p bs, Forall frame_valid (seen (read_frames fuel p bs)).
Proof.
  induction fuel as [|n IH]; intros p bs; cbn [read_frames seen]; [constructor|].
  destruct bs as [|b bs']; [constructor|].
  destruct (be_frame p (b :: bs')) as [c f t| |] eqn:E; cbn [seen]; try constructor.
  - exact (be_frame_valid _ _ _ _ _ E).
  - apply IH.
Qed.

Lemma conv_ranges_valid : forall rs prev, ack_ranges_valid prev rs = true -> exists t, conv_ranges prev rs = inl t.
Proof.
  induction rs as [|[g a] r IH]; intros prev H; cbn [conv_ranges ack_ranges_valid] in *.
  - now exists [].
  - destruct (prev <? g); [discriminate|]. destruct (prev - g <? 2); [discriminate|].
    destruct (prev - g - 2 <? a); [discriminate|].
    destruct (IH _ H) as [t E]. rewrite E. eauto.
Qed.

Lemma p_c20_conv_total raw wd f : frame_valid f -> exists q, conv raw wd f = QOk q.
Proof.
  destruct f; intro V; cbn [conv]; try (eexists; reflexivity).
  cbn [frame_valid] in V. unfold ack_valid in V.
  destruct (largest <? first); [discriminate|].
  destruct (conv_ranges_valid _ _ V) as [t E]. rewrite E. eauto.
Qed.

Lemma collect_total raw wd : forall fs acc, Forall frame_valid fs -> exists l, collect raw wd acc fs = COk l.
Proof.
  induction fs as [|f r IH]; intros acc H; cbn [collect].
  - eauto.
  - inversion H; subst. destruct (p_c20_conv_total raw wd f H2) as [q E]. rewrite E. apply IH. assumption.
Qed.

Lemma packet_obs s scheme wd p bs :
  let rs := frames_of (ptype_of p) bs in
  exists frames, collect (wants_raw s) wd [] (seen rs) = COk frames /\
    packet s scheme wd p bs =
      Obs (print_all rs)
          (if passes s scheme && visible s && match oks rs with Some _ => true | None => false end
           then [1; b2z (group_present s); 1; zlen frames] ++ concat frames else [0]).
Proof.
  cbv zeta. destruct (collect_total (wants_raw s) wd (seen (frames_of (ptype_of p) bs)) []) as [l E];
    [apply read_frames_valid|].
  exists l. split; [exact E|]. unfold packet. rewrite E.
  destruct (passes s scheme); cbn [negb andb]; [|reflexivity].
  destruct (oks _); [destruct (visible s)|rewrite andb_false_r]; reflexivity.
Qed.

(* purely observational: the dispatcher's view of a payload is the frame reader's, whatever the span's exporter *)
Lemma p_c20_observational s scheme wd p bs app log :
  packet s scheme wd p bs = Obs app log -> app = print_all (frames_of (ptype_of p) bs).
Proof. destruct (packet_obs s scheme wd p bs) as (l & _ & ->). now intros [= <- _]. Qed.

Lemma p_c20_same_behaviour s1 s2 sc1 sc2 wd1 wd2 p bs a1 l1 a2 l2 :
  packet s1 sc1 wd1 p bs = Obs a1 l1 -> packet s2 sc2 wd2 p bs = Obs a2 l2 -> a1 = a2.
Proof. intros H1 H2. rewrite (p_c20_observational _ _ _ _ _ _ _ H1), (p_c20_observational _ _ _ _ _ _ _ H2). reflexivity. Qed.

(* the narrowed fields hold the low 32 bits and are in the range of their qlog type, for every 62-bit wire value *)
Lemma u32_range v : 0 <= u32 v < 2 ^ 32.
Proof. unfold u32. apply Z.mod_pos_bound. reflexivity. Qed.

(* [-98; site] is what [print_out] makes of a [Crash]: no operation prints it, in any state *)
Lemma step_no_crash s op site : snd (step s op) <> [-98; Z.of_N site].
Proof.
  assert (P : forall sc wd p bs, print_out (packet s sc wd p bs) <> [-98; Z.of_N site]).
  { intros sc wd p bs. destruct (packet_obs s sc wd p bs) as (l & _ & ->). cbn [print_out].
    destruct (frames_of (ptype_of p) bs) as [|[c f t0|e|st] r]; cbn; discriminate. }
  destruct op as [t args]. unfold step.
  (* the pattern on tag and argument list is a tree of matches: at every leaf the output is a fixed list or a packet's *)
  repeat match goal with
         | |- context [match ?x with _ => _ end] => destruct x; cbn [snd]
         end; try discriminate; apply P.
Qed.
