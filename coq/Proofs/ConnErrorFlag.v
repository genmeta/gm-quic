(* [c_fix23] (which DataStreams::on_conn_error the model runs) is a constant of the state: no
   operation of the stream writes it.  And: a poll that answers Pending leaves its task number
   registered; the history of F23 on both trees. *)
From Coq Require Import List ZArith Bool.
From GQ Require Import Model.ConnError Proofs.ConnError Proofs.ConnErrorLater.
Local Open Scope N_scope.

Definition keeps (f : cm -> cm) : Prop := forall m, c_fix23 (f m) = c_fix23 m.

Lemma fx_wake_list : forall m l, c_fix23 (wake_list m l) = c_fix23 m. Proof. reflexivity. Qed.
Lemma fx_wake_opt : forall m o, c_fix23 (wake_opt m o) = c_fix23 m. Proof. intros; destruct o; reflexivity. Qed.
Lemma fx_upd_snd : forall m k s, c_fix23 (upd_snd m k s) = c_fix23 m. Proof. reflexivity. Qed.
Lemma fx_upd_rcv : forall m k r, c_fix23 (upd_rcv m k r) = c_fix23 m. Proof. reflexivity. Qed.

Lemma fx_params_ce : forall e m, c_fix23 (params_conn_error e m) = c_fix23 m.
Proof. intros. unfold params_conn_error. destruct (c_perr m); reflexivity. Qed.
Lemma fx_dg_ce : forall e m, c_fix23 (dg_conn_error e m) = c_fix23 m.
Proof.
  intros. unfold dg_conn_error, wake_opt.
  destruct (c_dgin_err m); [destruct (c_dgout_err m); reflexivity|].
  destruct (c_wdg m); cbn; destruct (c_dgout_err m); reflexivity.
Qed.
(* the one place that reads the flag *)
Lemma fx_ds_ce : forall e m, c_fix23 (ds_conn_error e m) = c_fix23 m.
Proof.
  intros. unfold ds_conn_error. destruct (c_out_err m); [reflexivity|].
  destruct (map_err (snd_conn_error e) (c_snd m)). destruct (map_err (rcv_conn_error e) (c_rcv m)).
  destruct (c_fix23 m) eqn:F; cbn; rewrite ?F; reflexivity.
Qed.
Lemma fx_conn_error : forall e m, c_fix23 (conn_error e m) = c_fix23 m.
Proof. intros. unfold conn_error. rewrite fx_params_ce, fx_dg_ce, fx_ds_ce. reflexivity. Qed.

Lemma fx_cm_exec : forall ops m idx, c_fix23 (cm_exec m idx ops) = c_fix23 m.
Proof.
  intros ops m idx.
  apply (exec_cm_exec (fun m' => c_fix23 m' = c_fix23 m)) with (allowed := fun _ => True); try reflexivity.
  - intros a b E H. rewrite (evolves_fix23 _ _ E). exact H.
  - intros tag e a _ _ H. rewrite fx_conn_error. exact H.
  - apply Forall_forall. intros; exact I.
Qed.

Lemma fx_init : forall f cfg m, cm_init f cfg = Some m -> c_fix23 m = f.
Proof.
  intros f cfg m H. unfold cm_init in H.
  destruct cfg as [|a [|b [|c [|d [|g [|h r]]]]]]; try discriminate. inversion H. reflexivity.
Qed.

Definition all_slots (m : cm) : list tid :=
  flat_map (fun x => sn_wakers (snd x)) (c_snd m) ++
  flat_map (fun x => opt_list (rc_wread (snd x))) (c_rcv m) ++
  opt_list (c_wbi m) ++ opt_list (c_wuni m) ++ fst (c_wsid m) ++ snd (c_wsid m) ++
  c_wparams m ++ opt_list (c_wdg m).

(* the slots that belong to no stream half count as registered whatever the state of the streams *)
Lemma in_registered : forall m t,
  In t (opt_list (c_wbi m)) \/ In t (opt_list (c_wuni m)) \/ In t (fst (c_wsid m)) \/ In t (snd (c_wsid m)) \/
  In t (c_wparams m) \/ In t (opt_list (c_wdg m)) -> In t (registered m).
Proof.
  intros m t H. unfold registered. do 2 (apply in_or_app; right).
  repeat (destruct H as [H|H]; [apply in_or_app; left; exact H|apply in_or_app; right]). exact H.
Qed.

Lemma registered_all_slots : forall m t, In t (registered m) -> In t (all_slots m).
Proof.
  assert (F : forall A (f g : A -> list tid) l t, (forall x, incl (f x) (g x)) ->
              In t (flat_map f l) -> In t (flat_map g l)).
  { intros A f g l t Hfg H. apply in_flat_map in H as (x & I & H). apply in_flat_map. exists x. split; [exact I|exact (Hfg x t H)]. }
  intros m t H. unfold registered in H. unfold all_slots.
  apply in_app_or in H as [H|H]; [|apply in_app_or in H as [H|H]].
  - apply in_or_app; left. revert H. apply F. intros [k s] x. cbn. unfold snd_registered.
    destruct (_ && _); [auto|contradiction].
  - apply in_or_app; right; apply in_or_app; left. revert H. apply F. intros [k r] x. cbn. unfold rcv_registered.
    destruct (_ && _); [auto|contradiction].
  - (* the slots that belong to no stream half are the same in both lists *)
    do 2 (apply in_or_app; right). exact H.
Qed.

Lemma in_flat_aupdate : forall A (g : A -> list tid) (l : list (N * A)) k v0 v t,
  alookup l k = Some v0 -> In t (g v) -> In t (flat_map (fun x => g (snd x)) (aupdate l k v)).
Proof.
  induction l as [|[k' v'] r IH]; intros k v0 v t H Hin; [discriminate|]. cbn in *.
  destruct (k' =? k); cbn; apply in_or_app; [left; exact Hin|right; eapply IH; eauto].
Qed.

Lemma reg_upd_snd : forall m sid s0 s t, handed_sender m sid = Some s0 -> sn_err s = None -> sn_live s = true ->
  In t (sn_wakers s) -> In t (registered (upd_snd m sid s)).
Proof.
  intros m sid s0 s t H E L Hin. apply in_or_app; left.
  apply (in_flat_aupdate _ snd_registered _ _ s0); [exact (handed_sender_lookup _ _ _ H)|].
  unfold snd_registered. rewrite E, L, (sn_live_in_set s L). exact Hin.
Qed.
Lemma reg_upd_rcv : forall m sid r0 r t, handed_recver m sid = Some r0 -> rc_err r = None -> rc_live r = true ->
  In t (opt_list (rc_wread r)) -> In t (registered (upd_rcv m sid r)).
Proof.
  intros m sid r0 r t H E L Hin. apply in_or_app; right; apply in_or_app; left.
  apply (in_flat_aupdate _ rcv_registered _ _ r0); [exact (handed_recver_lookup _ _ _ H)|].
  unfold rcv_registered. rewrite E, L. exact Hin.
Qed.

(* a poll that answers Pending has left its task number in a slot that counts as REGISTERED, not merely in a slot: a poll
   of a stream half parks only on a half that is healthy and live, the others park in slots that belong to no half.  So
   the fan-out that follows wakes it (conn_error_woken). *)
Lemma pending_registered : forall m t k,
  fst (snd (poll m t k)) = 0%Z -> In t (registered (fst (poll m t k))).
Proof.
  intros m t k. destruct k as [d | d | sid len | sid | sid | sid n | | ]; cbn [poll].
  - unfold poll_open. destruct (c_out_err m); [discriminate|]. destruct (c_perr m); [discriminate|].
    destruct (open_window m).
    + (* parked among the stream-id waiters of its direction *)
      destruct (_ <? _); cbn [fst snd]; [discriminate|]. intros _. apply in_registered.
      unfold lset, lget. destruct (d =? 0); [do 2 right; left|do 3 right; left]; cbn; apply in_elt.
    + cbn [fst snd]. intros _. apply in_registered. do 4 right; left. cbn. apply in_elt.
  - unfold poll_accept. destruct (c_out_err m); [discriminate|]. destruct (d =? 0).
    + destruct (c_perr m); [discriminate|]. destruct (c_pready m).
      * destruct (fst (c_lq m)); cbn [fst snd]; [|discriminate]. intros _. apply in_registered. left. left; reflexivity.
      * cbn [fst snd]. intros _. apply in_registered. do 4 right; left. cbn. apply in_elt.
    + destruct (snd (c_lq m)); cbn [fst snd]; [|discriminate]. intros _. apply in_registered.
      right; left. left; reflexivity.
  - unfold poll_write. destruct (handed_sender m sid) as [s|] eqn:E; [|discriminate].
    destruct (sn_err s) eqn:Es; [discriminate|]. destruct (sn_st s) eqn:St; try discriminate.
    destruct (sn_wshut s); [discriminate|]. destruct (_ <=? _); cbn [fst snd]; [|intros X; discriminate X].
    intros _. apply (reg_upd_snd _ _ s); [exact E|exact Es|unfold sn_live; cbn; rewrite St; reflexivity|]. left; reflexivity.
  - unfold poll_flush. destruct (handed_sender m sid) as [s|] eqn:E; [|discriminate].
    destruct (sn_err s) eqn:Es; [discriminate|].
    destruct (sn_st s) eqn:St; try discriminate; try (destruct (_ =? _); [discriminate|]); cbn [fst snd]; intros _;
      (apply (reg_upd_snd _ _ s); [exact E|exact Es|unfold sn_live; cbn; rewrite St; reflexivity|]);
      apply in_or_app; right; left; reflexivity.
  - unfold poll_shutdown. destruct (handed_sender m sid) as [s|] eqn:E; [|discriminate].
    destruct (sn_err s) eqn:Es; [discriminate|].
    destruct (sn_st s) eqn:St; try discriminate; cbn [fst snd]; intros _;
      (apply (reg_upd_snd _ _ s); [exact E|exact Es|unfold sn_live; cbn; rewrite St; reflexivity|]);
      do 2 (apply in_or_app; right); left; reflexivity.
  - unfold poll_read. destruct (handed_recver m sid) as [r|] eqn:E; [|discriminate].
    destruct (rc_err r) eqn:Er; [discriminate|].
    destruct (rc_ph r); try discriminate; (destruct (_ <? _); cbn [fst snd]; [intros X; discriminate X|]); intros _;
      (apply (reg_upd_rcv _ _ r); [exact E|exact Er|reflexivity|]); left; reflexivity.
  - unfold poll_dgrecv. destruct (c_dgin_err m); [discriminate|]. destruct (c_dgin m); cbn [fst snd]; [|discriminate].
    intros _. apply in_registered. do 5 right. left; reflexivity.
  - unfold poll_pready. destruct (c_perr m); [discriminate|]. destruct (c_pready m); cbn [fst snd]; [discriminate|].
    intros _. apply in_registered. do 4 right; left. cbn. apply in_elt.
Qed.

Lemma f23_state_clean : forall fix23, Clean (f23_state fix23).
Proof.
  intros. unfold f23_state. destruct (cm_init fix23 f23_cfg) as [m|] eqn:E.
  - apply clean_cm_exec; [repeat constructor; discriminate|exact (p_c17_init_clean _ _ _ E)].
  - unfold Clean. cbn. repeat split; constructor.
Qed.

