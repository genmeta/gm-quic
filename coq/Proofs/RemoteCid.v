(* Lemmas about Model/RemoteCid.v: its list update [upd] (also used for the router's views), then what
   one NEW_CONNECTION_ID frame does to the two deques.
   While they are aligned (cid_deque.offset = ready_cells.offset) the debug assertion of drain_to
   holds, cid_deque starts at the larger of its old offset and retire_prior_to, and the stored IDs
   fit the limit for every SOUND limit check (chk_fixed is sound, chk_coded is not: F18).
   The structural invariant, which keeps the deques aligned, is in Proofs/RemoteInv.v. *)
From Coq Require Import List NArith ZArith Lia.
From GQ Require Import Lib.Base Lib.Slice Model.Router Model.RemoteCid.
Import ListNotations.
Local Open Scope N_scope.

Lemma upd_length : forall A (l : list A) i v, length (upd l i v) = length l.
Proof. induction l; destruct i; intros; cbn; auto. Qed.

Lemma nth_error_upd : forall A (l : list A) p v i,
  nth_error (upd l p v) i = if Nat.eqb i p then (if (p <? length l)%nat then Some v else None) else nth_error l i.
Proof.
  induction l as [|x r IH]; intros p v i.
  - cbn. destruct (Nat.eqb i p); destruct i; reflexivity.
  - destruct p; destruct i; cbn [upd nth_error Nat.eqb]; auto.
    rewrite IH. reflexivity.
Qed.

Lemma nth_upd {A} {l : list A} {i a} (H : nth_error l i = Some a) v j :
  nth_error (upd l i v) j = if Nat.eqb j i then Some v else nth_error l j.
Proof.
  rewrite nth_error_upd. replace (i <? length l)%nat with true; [reflexivity|].
  symmetry. apply Nat.ltb_lt, nth_error_Some. congruence.
Qed.

Lemma Forall_upd : forall A (P : A -> Prop) l i v, Forall P l -> P v -> Forall P (upd l i v).
Proof. induction l; destruct i; intros v H Hv; inversion H; subst; cbn; auto. Qed.

Lemma upd_upd : forall A (l : list A) i a b, upd (upd l i a) i b = upd l i b.
Proof. induction l; destruct i; intros; cbn; rewrite ?IHl; reflexivity. Qed.

Lemma upd_same : forall A (l : list A) i a, nth_error l i = Some a -> upd l i a = l.
Proof.
  induction l; destruct i; intros b H; try discriminate; cbn in *; [congruence|].
  rewrite IHl by assumption. reflexivity.
Qed.

Lemma upd_last : forall A (l : list A) a b, upd (l ++ [a]) (length l) b = l ++ [b].
Proof. induction l; intros; cbn; rewrite ?IHl; reflexivity. Qed.

Lemma map_upd : forall A B (f : A -> B) l i a, map f (upd l i a) = upd (map f l) i (f a).
Proof. induction l; destruct i; intros; cbn; rewrite ?IHl; reflexivity. Qed.

Lemma nth_error_last : forall A (l : list A) a, nth_error (l ++ [a]) (length l) = Some a.
Proof. intros. rewrite nth_error_app2, Nat.sub_diag by apply Nat.le_refl. reflexivity. Qed.

Lemma nth_error_snoc : forall A (l : list A) a j b, nth_error (l ++ [a]) j = Some b ->
  nth_error l j = Some b \/ j = length l /\ b = a.
Proof.
  intros A l a j b H. destruct (Nat.lt_ge_cases j (length l)) as [Hlt|Hge].
  - rewrite nth_error_app1 in H by assumption. auto.
  - rewrite nth_error_app2 in H by assumption. destruct (j - length l)%nat as [|[|k]] eqn:E; try discriminate.
    inversion H. right. split; [lia|reflexivity].
Qed.

Lemma dq_insert_length : forall A off (l : list (option A)) idx v,
  off <= idx -> lenN (dq_insert off l idx v) = N.max (lenN l) (idx - off + 1).
Proof.
  intros A off l idx v H. unfold dq_insert, lenN.
  destruct (N.to_nat (idx - off) <? length l)%nat eqn:E.
  - apply Nat.ltb_lt in E. rewrite upd_length. lia.
  - apply Nat.ltb_ge in E. rewrite !app_length, repeat_length. cbn [length]. lia.
Qed.

Lemma dq_insert_get : forall A off (l : list (option A)) idx v i x,
  nth_error (dq_insert off l idx v) i = Some (Some x) ->
  nth_error l i = Some (Some x) \/ i = N.to_nat (idx - off) /\ v = Some x.
Proof.
  intros A off l idx v i x H. unfold dq_insert in H. set (pos := N.to_nat (idx - off)) in *.
  destruct (pos <? length l)%nat eqn:E.
  - rewrite nth_error_upd, E in H. destruct (Nat.eqb_spec i pos); [right; split; congruence|auto].
  - apply Nat.ltb_ge in E. rewrite app_assoc in H. apply nth_error_snoc in H. destruct H as [H|[-> H]].
    + destruct (Nat.lt_ge_cases i (length l)) as [Hlt|Hge].
      * rewrite nth_error_app1 in H by assumption. auto.
      * rewrite nth_error_app2 in H by assumption. apply nth_error_In, repeat_spec in H. discriminate.
    + right. rewrite app_length, repeat_length. split; [lia|congruence].
Qed.

(* arrange_idle_cid is a loop over the pending cells with two kinds of turn: a retired cell is dropped,
   a live one takes the stored ID at the cursor.  [arrange_rule] is its invariant rule: whatever both turns
   keep holds when the loop ends, with the frames of the assignments appended; the loop ends when no cell
   is pending or no ID is stored at the cursor.  Every fact about [arrange] is an instance. *)
Definition skip_turn (s : rcids) : rcids :=
  mkR (r_coff s) (r_cids s) (r_roff s) (r_ready s) (tl (r_pending s)) (r_limit s) (r_cursor s) (r_cells s).
Definition assign_turn (s : rcids) (p : nat) (c' : cell) : rcids :=
  mkR (r_coff s) (r_cids s) (r_roff s) (r_ready s ++ [p]) (tl (r_pending s)) (r_limit s) (r_cursor s + 1)
      (upd (r_cells s) p c').

Section ArrangeRule.
  Variable Q : rcids -> list N -> Prop.
  Hypothesis Q_skip : forall s em p, Q s em ->
    hd_error (r_pending s) = Some p -> a_retired (get_cell (r_cells s) p) = true -> Q (skip_turn s) em.
  Hypothesis Q_assign : forall s em p seq id c' fr, Q s em ->
    hd_error (r_pending s) = Some p -> a_retired (get_cell (r_cells s) p) = false ->
    dq_get (r_coff s) (r_cids s) (r_cursor s) = Some (Some (seq, id)) ->
    cell_assign (get_cell (r_cells s) p) seq id = (c', fr) -> Q (assign_turn s p c') (em ++ fr).

  Lemma arrange_rule : forall s em s' fr, Q s em -> arrange s = (s', fr) ->
    Q s' (em ++ fr) /\ (r_pending s' = [] \/ forall x, dq_get (r_coff s') (r_cids s') (r_cursor s') <> Some (Some x)).
  Proof.
    intros [coff cids roff ready pend limit cursor cells]. unfold arrange.
    cbn [r_coff r_cids r_roff r_ready r_pending r_limit r_cursor r_cells].
    revert cursor cells ready. induction pend as [|p rest IH]; intros cursor cells ready em s' fr HQ H;
      cbn [arrange_loop] in H.
    - injection H as <- <-. rewrite app_nil_r. auto.
    - destruct (a_retired (get_cell cells p)) eqn:ER.
      { exact (IH _ _ _ _ _ _ (Q_skip _ _ p HQ eq_refl ER) H). }
      destruct (dq_get coff cids cursor) as [[[seq id]|]|] eqn:EG.
      + destruct (cell_assign (get_cell cells p) seq id) as [c' fr0] eqn:EA.
        pose proof (IH (cursor + 1) (upd cells p c') (ready ++ [p]) (em ++ fr0)) as IH1.
        destruct (arrange_loop rest coff cids (cursor + 1) (upd cells p c') (ready ++ [p]))
          as [[[[pend1 cur1] cells1] ready1] fr1].
        injection H as <- <-. rewrite app_assoc.
        exact (IH1 _ _ (Q_assign _ _ p _ _ _ _ HQ eq_refl ER EG EA) eq_refl).
      + injection H as <- <-. rewrite app_nil_r. split; [assumption|]. right. intros x. cbn. congruence.
      + injection H as <- <-. rewrite app_nil_r. split; [assumption|]. right. intros x. cbn. congruence.
  Qed.
End ArrangeRule.

Lemma arrange_fields : forall s s' fr, arrange s = (s', fr) ->
  r_coff s' = r_coff s /\ r_cids s' = r_cids s /\ r_roff s' = r_roff s /\ r_limit s' = r_limit s.
Proof.
  intros s s' fr H.
  refine (proj1 (arrange_rule (fun t _ => r_coff t = r_coff s /\ r_cids t = r_cids s /\ r_roff t = r_roff s /\
                                          r_limit t = r_limit s) _ _ s [] s' fr _ H)); auto.
Qed.

Lemma apply_fields : forall s s' p fr, apply_dcid s = (s', p, fr) ->
  r_coff s' = r_coff s /\ r_cids s' = r_cids s /\ r_roff s' = r_roff s /\ r_limit s' = r_limit s.
Proof.
  intros s s' p fr H. unfold apply_dcid in H. destruct (arrange _) as [s2 f2] eqn:E.
  inversion H; subst. apply arrange_fields in E. exact E.
Qed.

(* Below the offset of ready_cells nothing happens.  Otherwise the three branches of the code compute
   the same thing: ready_cells is cut at tomb (an empty ready_cells has largest() = offset(), and
   nothing is popped from it), and one frame goes out for every number from largest() up to tomb
   (none when tomb <= largest()). *)
Lemma rpt_eq : forall s tomb,
  retire_prior_to s tomb =
    if r_roff s <? tomb then
      let coff' := N.min (N.max tomb (r_coff s)) (r_coff s + lenN (r_cids s)) in
      let applied := r_roff s + lenN (r_ready s) in
      let k := N.min applied tomb - r_roff s in
      (mkR coff' (dropN (coff' - r_coff s) (r_cids s)) tomb (dropN k (r_ready s))
           (r_pending s ++ live_of (r_cells s) (takeN k (r_ready s))) (r_limit s)
           (N.max (r_cursor s) tomb) (r_cells s),
       nrange applied tomb)
    else (s, []).
Proof.
  intros s tomb. unfold retire_prior_to. destruct (N.ltb_spec (r_roff s) tomb) as [H|H].
  2:{ apply N.leb_le in H. rewrite H. reflexivity. }
  rewrite (proj2 (N.leb_gt _ _) H). destruct (r_ready s) as [|p0 rd].
  - change (lenN []) with 0. rewrite N.add_0_r. unfold takeN, dropN.
    rewrite firstn_nil, skipn_nil, app_nil_r. reflexivity.
  - cbn zeta. destruct (N.ltb_spec (r_roff s + lenN (p0 :: rd)) tomb) as [Hlt|Hge]; [reflexivity|].
    rewrite (N.min_r _ tomb Hge). unfold nrange. rewrite (proj2 (N.sub_0_le _ _) Hge). reflexivity.
Qed.

(* drain_to, with the clamping of the release build *)
Lemma rpt_drain : forall s tomb s' fr, retire_prior_to s tomb = (s', fr) ->
  r_coff s' = (if r_roff s <? tomb then N.min (N.max tomb (r_coff s)) (r_coff s + lenN (r_cids s)) else r_coff s) /\
  r_coff s <= r_coff s' /\ r_coff s' + lenN (r_cids s') = r_coff s + lenN (r_cids s) /\ r_limit s' = r_limit s.
Proof.
  intros s tomb s' fr H. rewrite rpt_eq in H. destruct (r_roff s <? tomb); inversion H; subst s' fr.
  - cbn [r_coff r_cids r_limit]. set (c' := N.min _ _).
    assert (r_coff s <= c' <= r_coff s + lenN (r_cids s)) by (unfold c'; lia). clearbody c'.
    rewrite lenN_dropN. split; [reflexivity|lia].
  - split; [reflexivity|lia].
Qed.

Definition Aligned (s : rcids) : Prop := r_coff s = r_roff s.
(* stored IDs (holes included) fit the limit *)
Definition Fits (s : rcids) : Prop := lenN (r_cids s) <= r_limit s.

(* the state just after cid_deque.insert(seq, ..) *)
Definition inserted (s : rcids) (seq : N) (id : cid) : rcids :=
  mkR (r_coff s) (dq_insert (r_coff s) (r_cids s) seq (Some (seq, id)))
      (r_roff s) (r_ready s) (r_pending s) (r_limit s) (r_cursor s) (r_cells s).

(* the frame processed, whatever the verdict: insert, retire_prior_to, arrange_idle_cid *)
Definition processed (s : rcids) (seq rpt : N) (id : cid) : rcids * list N :=
  let '(s2, f1) := retire_prior_to (inserted s seq id) rpt in
  let '(s3, f2) := arrange s2 in (s3, f1 ++ f2).

Lemma inserted_end : forall s seq id, r_coff s <= seq ->
  r_coff (inserted s seq id) + lenN (r_cids (inserted s seq id)) = N.max (r_coff s + lenN (r_cids s)) (seq + 1).
Proof. intros s seq id H. cbn [inserted r_coff r_cids]. rewrite dq_insert_length by assumption. lia. Qed.

(* IndexDeque::drain_to's debug assertion holds whenever retire_prior_to drains *)
Lemma p_drain_ok : forall s seq rpt id,
  Aligned s -> rpt <= seq -> r_roff s < rpt ->
  drain_ok (inserted s seq id) rpt = true.
Proof.
  intros s seq rpt id HA H1 H2. unfold drain_ok, Aligned in *. rewrite inserted_end by lia.
  cbn [inserted r_coff]. apply andb_true_intro. split; apply N.leb_le; lia.
Qed.

Lemma processed_stages : forall s seq rpt id s' fr, processed s seq rpt id = (s', fr) ->
  exists s2 f1 f2, retire_prior_to (inserted s seq id) rpt = (s2, f1) /\ arrange s2 = (s', f2) /\ fr = f1 ++ f2.
Proof.
  intros s seq rpt id s' fr H. unfold processed in H.
  destruct (retire_prior_to (inserted s seq id) rpt) as [s2 f1]. destruct (arrange s2) as [s3 f2] eqn:E3.
  injection H as <- <-. exists s2, f1, f2. auto.
Qed.

(* cid_deque after the frame: the insert stretches it to hold seq, drain_to cuts its front and keeps its end *)
Lemma processed_deque : forall s seq rpt id s' fr, r_coff s <= seq -> processed s seq rpt id = (s', fr) ->
  let len := N.max (lenN (r_cids s)) (seq - r_coff s + 1) in
  r_coff s' = (if r_roff s <? rpt then N.min (N.max rpt (r_coff s)) (r_coff s + len) else r_coff s) /\
  r_coff s <= r_coff s' /\ r_coff s' + lenN (r_cids s') = r_coff s + len /\ r_limit s' = r_limit s.
Proof.
  intros s seq rpt id s' fr Hge H. destruct (processed_stages _ _ _ _ _ _ H) as (s2 & f1 & f2 & E2 & E3 & _).
  destruct (arrange_fields _ _ _ E3) as (-> & -> & _ & ->).
  pose proof (rpt_drain _ _ _ _ E2) as D. cbn [inserted r_coff r_cids r_roff r_limit] in D.
  rewrite dq_insert_length in D by assumption. exact D.
Qed.

Definition sound_chk (chk : N -> N -> N -> bool) : Prop :=
  forall seq rpt lim, chk seq rpt lim = false -> seq + 1 - rpt <= lim.

Lemma chk_fixed_sound : sound_chk chk_fixed.
Proof. intros seq rpt lim H. unfold chk_fixed in H. apply N.ltb_ge in H. exact H. Qed.

(* the two checks differ exactly on the class `sequence - retire_prior_to = limit` (F18) *)
Lemma chk_agree : forall seq rpt lim,
  seq - rpt <> lim -> chk_coded seq rpt lim = chk_fixed seq rpt lim.
Proof.
  intros. unfold chk_coded, chk_fixed.
  destruct (N.ltb_spec lim (seq - rpt)); destruct (N.ltb_spec lim (seq + 1 - rpt)); try reflexivity; lia.
Qed.

Section Chk.
  Variable chk : N -> N -> N -> bool.
  Variable post : rcids -> bool.

  Lemma recv_eq : forall s seq rpt id,
    recv_new_cid chk post s seq rpt id =
    if chk seq rpt (r_limit s) then (s, [], NErrLimit)
    else if seq <? r_coff s then (s, [], NDiscarded)
    else let '(s3, fr) := processed s seq rpt id in (s3, fr, if post s3 then NErrLimit else NAccepted).
  Proof.
    intros. unfold recv_new_cid, processed, inserted.
    destruct (chk seq rpt (r_limit s)); [reflexivity|]. destruct (seq <? r_coff s); [reflexivity|].
    destruct (retire_prior_to _ rpt) as [s2 f1]. destruct (arrange s2) as [s3 f2]. reflexivity.
  Qed.

  Lemma recv_cases : forall s seq rpt id s' fr res,
    recv_new_cid chk post s seq rpt id = (s', fr, res) ->
    (chk seq rpt (r_limit s) = true \/ seq < r_coff s) /\ s' = s /\ fr = [] \/
    chk seq rpt (r_limit s) = false /\ r_coff s <= seq /\ processed s seq rpt id = (s', fr).
  Proof.
    intros s seq rpt id s' fr res H. rewrite recv_eq in H.
    destruct (chk seq rpt (r_limit s)); [inversion H; subst; auto|].
    destruct (N.ltb_spec seq (r_coff s)); [inversion H; subst; auto|].
    destruct (processed s seq rpt id) as [s3 fr3]. inversion H; subst; auto.
  Qed.

  Lemma recv_limit : forall s seq rpt id s' fr res,
    recv_new_cid chk post s seq rpt id = (s', fr, res) -> r_limit s' = r_limit s.
  Proof.
    intros s seq rpt id s' fr res H.
    destruct (recv_cases _ _ _ _ _ _ _ H) as [(_ & -> & _)|(_ & Hge & HP)]; [reflexivity|].
    exact (proj2 (proj2 (proj2 (processed_deque _ _ _ _ _ _ Hge HP)))).
  Qed.

  Lemma recv_fits : forall s seq rpt id s' fr res,
    sound_chk chk -> Aligned s -> Fits s ->
    recv_new_cid chk post s seq rpt id = (s', fr, res) -> Fits s'.
  Proof.
    intros s seq rpt id s' fr res HS HA HF H. unfold Fits in *.
    destruct (recv_cases _ _ _ _ _ _ _ H) as [(_ & -> & _)|(EC & Hge & HP)]; [assumption|].
    destruct (processed_deque _ _ _ _ _ _ Hge HP) as (C & _ & Hend & ->). apply HS in EC. unfold Aligned in HA.
    rewrite <- HA in C. destruct (N.ltb_spec (r_coff s) rpt); lia.
  Qed.
End Chk.

(* the RFC-exact check: no test before processing, the verdict is the count afterwards *)
Lemma recv_count_spec : forall s seq rpt id,
  recv_new_cid no_pre post_count s seq rpt id =
  if seq <? r_coff s then (s, [], NDiscarded)
  else let '(s3, fr) := processed s seq rpt id in
       (s3, fr, if r_limit s <? active s3 then NErrLimit else NAccepted).
Proof.
  intros. rewrite recv_eq. unfold no_pre. destruct (N.ltb_spec seq (r_coff s)) as [|Hge]; [reflexivity|].
  destruct (processed s seq rpt id) as [s3 fr] eqn:EP.
  unfold post_count. rewrite (proj2 (proj2 (proj2 (processed_deque _ _ _ _ _ _ Hge EP)))). reflexivity.
Qed.
