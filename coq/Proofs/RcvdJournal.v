(* Proofs about the received-packet journal (Model/RcvdJournal.v): the C10 clauses about
   generated ACK frames and about accepting a packet number at most once. *)
From Coq Require Import List ZArith Bool Lia.
From GQ Require Import Model.RcvdJournal.
Import ListNotations.
Local Open Scope Z_scope.

Lemma nth_true_lt : forall (l : list bool) i, nth i l false = true -> (i < length l)%nat.
Proof.
  intros l i H. destruct (Nat.lt_ge_cases i (length l)) as [|Hge]; [assumption|].
  rewrite nth_overflow in H by exact Hge. discriminate.
Qed.

Lemma nth_skipn : forall A k (l : list A) i d, nth i (skipn k l) d = nth (k + i) l d.
Proof. induction k; destruct l; cbn [skipn Nat.add nth]; intros; auto. destruct i; reflexivity. Qed.

Lemma nth_firstn_lt : forall A (l : list A) n k d, (k < n)%nat -> nth k (firstn n l) d = nth k l d.
Proof. induction l; destruct n, k; cbn; intros; try lia; auto. apply IHl. lia. Qed.

Lemma varint_size_pos : forall v, 1 <= varint_size v <= 8.
Proof.
  intros v. unfold varint_size.
  destruct (v <? 2^6); [lia|]. destruct (v <? 2^14); [lia|]. destruct (v <? 2^30); lia.
Qed.

Lemma ltb_succ : forall n c, n <> c - 1 -> (n + 1 <? c) = (n <? c).
Proof. intros n c H. destruct (Z.ltb_spec (n + 1) c), (Z.ltb_spec n c); try reflexivity; lia. Qed.

(* `range_count_size_increment` is the growth of the varint holding the range count: away from the
   three boundaries n + 1 passes the same tests as n *)
Lemma varint_size_succ : forall n, varint_size (n + 1) = varint_size n + rc_incr n.
Proof.
  intros n. unfold rc_incr.
  destruct (Z.eqb_spec n (2^6 - 1)) as [->|]; [reflexivity|].
  destruct (Z.eqb_spec n (2^14 - 1)) as [->|]; [reflexivity|].
  destruct (Z.eqb_spec n (2^30 - 1)) as [->|]; [reflexivity|].
  unfold varint_size. rewrite !ltb_succ by assumption. apply Zplus_0_r_reverse.
Qed.

Lemma rc_incr_nonneg : forall n, 0 <= rc_incr n.
Proof.
  intros n. unfold rc_incr.
  destruct (n =? 2^6 - 1); [lia|]. destruct (n =? 2^14 - 1); [lia|]. destruct (n =? 2^30 - 1); lia.
Qed.

Lemma ranges_size_app : forall a b, ranges_size (a ++ b) = ranges_size a + ranges_size b.
Proof. induction a as [|[g x] a IH]; cbn; intros; [lia|]. rewrite IH. lia. Qed.

(* what the ranges [rs] cost a frame that holds [nr] ranges already, counted as gen_ack_frame_util counts:
   each its two fields and what it adds to the varint of the range count *)
Fixpoint rcost (nr : Z) (rs : list (Z * Z)) : Z :=
  match rs with
  | [] => 0
  | (g, a) :: r => rc_incr nr + varint_size g + varint_size a + rcost (nr + 1) r
  end.

Lemma rcost_size : forall rs nr,
  ranges_size rs + varint_size (nr + Z.of_nat (length rs)) = varint_size nr + rcost nr rs.
Proof.
  induction rs as [|[g a] rs IH]; intros nr; cbn [ranges_size length rcost Z.of_nat].
  - rewrite Z.add_0_r. lia.
  - specialize (IH (nr + 1)). rewrite varint_size_succ in IH. rewrite Zpos_P_of_succ_nat, <- Z.add_1_l, Z.add_assoc. lia.
Qed.

Lemma rcost_nonneg : forall rs nr, 0 <= rcost nr rs.
Proof.
  induction rs as [|[g a] rs IH]; intros nr; cbn [rcost]; [lia|].
  pose proof (rc_incr_nonneg nr). pose proof (varint_size_pos g). pose proof (varint_size_pos a).
  specialize (IH (nr + 1)). lia.
Qed.

(* the frame with no further range (the last byte is the varint of the range count 0) *)
Definition hdr_size (f : ackframe) : Z :=
  1 + varint_size (a_largest f) + varint_size (a_delay f) + varint_size (a_first f) + 1.

Lemma ack_size_rcost : forall f, ack_encoding_size f = hdr_size f + rcost 0 (a_ranges f).
Proof.
  intros f. pose proof (rcost_size (a_ranges f) 0) as H. rewrite Z.add_0_l in H. change (varint_size 0) with 1 in H.
  unfold ack_encoding_size, hdr_size. lia.
Qed.

(* the ranges that a capacity admits: the first one that does not fit ends the list.  This is all that
   `capacity` does in gen_ack_frame_util ([gen_ack_spec]). *)
Fixpoint take_fit (cap nr : Z) (rs : list (Z * Z)) : list (Z * Z) :=
  match rs with
  | [] => []
  | (g, a) :: r =>
      let size := rc_incr nr + varint_size g + varint_size a in
      if cap <? size then [] else (g, a) :: take_fit (cap - size) (nr + 1) r
  end.

Lemma take_fit_spec : forall rs cap nr, 0 <= cap ->
  rcost nr (take_fit cap nr rs) <= cap /\
  exists r, rs = take_fit cap nr rs ++ r /\ (rcost nr rs <= cap -> r = []).
Proof.
  induction rs as [|[g a] rs IH]; cbn [take_fit rcost]; intros cap nr Hc.
  - split; [exact Hc|]. exists []. auto.
  - destruct (Z.ltb_spec cap (rc_incr nr + varint_size g + varint_size a)) as [C|C]; cbn [rcost].
    + split; [exact Hc|]. eexists. split; [reflexivity|]. pose proof (rcost_nonneg rs (nr + 1)). lia.
    + destruct (IH (cap - (rc_incr nr + varint_size g + varint_size a)) (nr + 1)) as (Hfit & r & Hr & Hall); [lia|].
      split; [lia|]. exists r. split; [cbn [app]; rewrite <- Hr; reflexivity|]. intros. apply Hall. lia.
Qed.

Definition cut_frame (cap : Z) (f : ackframe) : ackframe :=
  mkack (a_largest f) (a_delay f) (a_first f) (take_fit (cap - hdr_size f) 0 (a_ranges f)).

Lemma cut_frame_spec : forall cap F f, hdr_size F <= cap -> f = cut_frame cap F ->
  ack_encoding_size f <= cap /\
  exists r, F = mkack (a_largest f) (a_delay f) (a_first f) (a_ranges f ++ r) /\ (ack_encoding_size F <= cap -> r = []).
Proof.
  intros cap F f H ->. rewrite !ack_size_rcost. change (hdr_size (cut_frame cap F)) with (hdr_size F).
  destruct (take_fit_spec (a_ranges F) (cap - hdr_size F) 0) as (Hfit & r & Hr & Hall); [lia|].
  cbn [cut_frame a_largest a_delay a_first a_ranges]. split; [lia|]. exists r.
  split; [rewrite <- Hr; destruct F; reflexivity|]. intros. apply Hall. lia.
Qed.

Lemma track_spec : forall pn s, tracked (fst (track pn s)) = tracked s /\ snd (track pn s) = tracked s.
Proof. destruct s; split; reflexivity. Qed.

(* where the first loop stops *)
Fixpoint lead (fl : list bool) : nat := match fl with true :: r => S (lead r) | _ => O end.

Lemma first_loop_spec : forall pn l c done rem, first_loop pn l = (c, done, rem) ->
  c = Z.of_nat (lead (map tracked l)) /\ rem = skipn (S (lead (map tracked l))) l /\
  map tracked (done ++ rem) = map tracked l.
Proof.
  induction l as [|s rest IH]; cbn [first_loop map]; intros c done rem H.
  - injection H as <- <- <-. auto.
  - destruct (track_spec pn s) as [Ht Hf].
    destruct (track pn s) as [s' t]. cbn [fst snd] in Ht, Hf. rewrite <- Hf in *. destruct t.
    + destruct (first_loop pn rest) as [[c1 d1] r1]. injection H as <- <- <-.
      destruct (IH _ _ _ eq_refl) as (Hc & Hr & Hm). cbn [lead app map skipn] in *.
      rewrite Ht, Hm, Nat2Z.inj_succ. repeat split; [lia|exact Hr].
    + injection H as <- <- <-. cbn. rewrite Ht. auto.
Qed.

Lemma iter_tail_app : forall R r sm t, iter_tail sm (R ++ r) = Some t ->
  exists t1 t2, iter_tail sm R = Some t1 /\ t = t1 ++ t2.
Proof.
  induction R as [|[g a] R IH]; cbn [app iter_tail]; intros r sm t H; [exists [], t; auto|].
  destruct (sm <? g); [discriminate|]. destruct (sm - g <? 2); [discriminate|]. destruct (sm - g - 2 <? a); [discriminate|].
  destruct (iter_tail _ (R ++ r)) as [t'|] eqn:E; [|discriminate]. injection H as <-.
  destruct (IH _ _ _ E) as (t1 & t2 & -> & ->). eexists. exists t2. split; reflexivity.
Qed.

Lemma iter_tail_cons : forall sm g a r t, 0 <= g -> 0 <= a -> 0 <= sm - g - 2 - a ->
  iter_tail (sm - g - 2 - a) r = Some t ->
  iter_tail sm ((g, a) :: r) = Some ((sm - g - 2 - a, sm - g - 2) :: t).
Proof.
  intros sm g a r t Hg Ha Hl Ht. cbn [iter_tail].
  destruct (Z.ltb_spec sm g); [lia|]. destruct (Z.ltb_spec (sm - g) 2); [lia|].
  destruct (Z.ltb_spec (sm - g - 2) a); [lia|]. rewrite Ht. reflexivity.
Qed.

Lemma in_ranges_cons : forall x lo hi t, in_ranges x ((lo, hi) :: t) = true <-> lo <= x <= hi \/ in_ranges x t = true.
Proof.
  intros x lo hi t. unfold in_ranges. cbn [existsb]. unfold in_range at 1. cbn [fst snd].
  rewrite orb_true_iff, andb_true_iff, !Z.leb_le. reflexivity.
Qed.

Lemma ack_iter_tail : forall l d f rs, 0 <= l -> ack_iter (mkack l d f rs) = iter_tail (l + 2) ((0, f) :: rs).
Proof.
  intros l d f rs Hl. unfold ack_iter. cbn [iter_tail a_largest a_first a_ranges].
  destruct (Z.ltb_spec (l + 2) 0); [lia|]. destruct (Z.ltb_spec (l + 2 - 0) 2); [lia|].
  replace (l + 2 - 0 - 2) with l by lia. reflexivity.
Qed.

(* the ranges listed when capacity is no object *)
Fixpoint runs_full (l : list bool) (gap ack : Z) (last : bool) : list (Z * Z) :=
  match l with
  | [] => if last then [(gap - 1, ack - 1)] else []
  | t :: rest =>
      match last, t with
      | true, false => (gap - 1, ack - 1) :: runs_full rest 1 0 false
      | _, true => runs_full rest gap (ack + 1) true
      | false, false => runs_full rest (gap + 1) ack false
      end
  end.

Definition flagged (fl : list bool) (p x : Z) : Prop := exists i, x = p - Z.of_nat i /\ nth i fl false = true.

Lemma flagged_nil : forall p x, flagged [] p x <-> False.
Proof. intros p x. split; [intros ([|i] & _ & Hn); discriminate | contradiction]. Qed.

Lemma flagged_cons : forall (t : bool) rest p x,
  flagged (t :: rest) p x <-> (if t then x = p else False) \/ flagged rest (p - 1) x.
Proof.
  intros t rest p x. unfold flagged. split.
  - intros ([|i] & Hx & Hn); [left; cbn in Hn; subst t; lia | right; exists i; split; [lia|exact Hn]].
  - intros [Ht|(i & Hx & Hn)]; [destruct t; [exists O; split; [lia|reflexivity] | contradiction] | exists (S i); split; [lia|exact Hn]].
Qed.

(* below [smallest] (the low end of the range before) lie [gap] numbers that were not received and
   then [ack] that were (the pending range); [l] holds the flags of the numbers from p down, none of
   them below zero: AckFrame::iter accepts the list, and what it yields are the pending numbers
   and the flagged ones. *)
Lemma runs_full_spec : forall (l : list bool) p gap ack (last : bool) smallest,
  1 <= gap -> (if last then 1 <= ack else ack = 0) -> p = smallest - gap - ack - 1 ->
  Z.of_nat (length l) <= p + 1 ->
  (forall g a, In (g, a) (runs_full l gap ack last) -> 0 <= g /\ 0 <= a) /\
  exists t, iter_tail smallest (runs_full l gap ack last) = Some t /\
    forall x, in_ranges x t = true <-> smallest - gap - ack <= x <= smallest - gap - 1 \/ flagged l p x.
Proof.
  induction l as [|t rest IH]; cbn [runs_full length]; intros p gap ack last sm Hg Ha Hp Hlow.
  - destruct last.
    + split; [intros g a [[= <- <-]|[]]; lia|].
      eexists. split; [apply iter_tail_cons; try lia; reflexivity|].
      intros x. rewrite in_ranges_cons, flagged_nil.
      split; (intros [H|H]; [left; lia|]); [discriminate H | contradiction H].
    + split; [intros g a []|]. exists []. split; [reflexivity|].
      intros x. rewrite flagged_nil. split; [discriminate | lia].
  - rewrite Nat2Z.inj_succ in Hlow.
    (* in each case the flagged numbers of [rest] stand on both sides; what is left is arithmetic *)
    destruct last, t.
    1, 3: (* a received number: the pending range grows *)
      destruct (IH (p - 1) gap (ack + 1) true sm) as (N & r & Hit & C); try lia; split; [exact N|];
      exists r; split; [exact Hit|];
      intros x; rewrite C, flagged_cons, <- or_assoc; apply or_iff_compat_r; lia.
    + (* the pending range ends *)
      destruct (IH (p - 1) 1 0 false (sm - gap - ack)) as (N & r & Hit & C); try lia.
      split; [intros g a [[= <- <-]|Hin]; [lia | exact (N g a Hin)]|].
      replace (sm - gap - ack) with (sm - (gap - 1) - 2 - (ack - 1)) in Hit by lia.
      eexists. split; [apply iter_tail_cons; try lia; exact Hit|].
      intros x. rewrite in_ranges_cons, C, flagged_cons, <- !or_assoc. apply or_iff_compat_r. lia.
    + destruct (IH (p - 1) (gap + 1) ack false sm) as (N & r & Hit & C); try lia.
      split; [exact N|]. exists r. split; [exact Hit|].
      intros x. rewrite C, flagged_cons, <- or_assoc. apply or_iff_compat_r. lia.
Qed.

(* the range the fold's accumulator holds when it stops *)
Definition pending (st : Z * Z * bool) : list (Z * Z) :=
  let '(g, a, last) := st in if last then [(g - 1, a - 1)] else [].

(* the arms of the fold that push no range *)
Lemma let_cons_inv : forall A B C D (X : A * B * C * list D) x R st c l,
  (let '(R, st, c, l) := X in (R, st, c, x :: l)) = (R, st, c, l) -> exists l1, X = (R, st, c, l1) /\ l = x :: l1.
Proof. intros A B C D [[[R1 st1] c1] l1] x R st c l [= <- <- <- <-]. eauto. Qed.

(* the fold lists the ranges of [runs_full] that fit, once its pending range is put to the same test;
   the records it hands back differ in AckSent bookkeeping only: [tracked] is kept *)
Lemma ack_fold_spec : forall pn l gap ack last cap nr R st cap' l',
  ack_fold pn l gap ack last cap nr = (R, st, cap', l') ->
  map tracked l' = map tracked l /\
  R ++ take_fit cap' (nr + Z.of_nat (length R)) (pending st) = take_fit cap nr (runs_full (map tracked l) gap ack last).
Proof.
  induction l as [|s rest IH]; cbn [ack_fold map runs_full]; intros gap ack last cap nr R st cap' l' H.
  - injection H as <- <- <- <-. cbn [app length Z.of_nat]. rewrite Z.add_0_r. auto.
  - destruct (track_spec pn s) as [Ht Hf].
    destruct (track pn s) as [s' t]. cbn [fst snd] in Ht, Hf. rewrite <- Hf in *. clear Hf.
    destruct last, t.
    2:{ (* the pending range ends: pushed if it fits, else Break *)
      cbn [take_fit]. destruct (cap <? rc_incr nr + varint_size (gap - 1) + varint_size (ack - 1)).
      - injection H as <- <- <- <-. cbn [map]. rewrite Ht. auto.
      - destruct (ack_fold pn rest 1 0 false _ (nr + 1)) as [[[R1 st1] c1] l1] eqn:E.
        injection H as <- <- <- <-. destruct (IH _ _ _ _ _ _ _ _ _ E) as (Hm & Hr).
        cbn [map length app]. rewrite Ht, Hm, <- Hr.
        replace (nr + Z.of_nat (S (length R1))) with (nr + 1 + Z.of_nat (length R1)) by lia. auto. }
    (* no range ends here *)
    all: apply let_cons_inv in H; destruct H as (l1 & E & ->).
    all: destruct (IH _ _ _ _ _ _ _ _ _ E) as (Hm & IH').
    all: cbn [map]; rewrite Ht, Hm.
    all: split; [reflexivity | exact IH'].
Qed.

Lemma runs_full_lead : forall fl gap ack,
  runs_full fl gap ack true = (gap - 1, ack + Z.of_nat (lead fl) - 1) :: runs_full (skipn (S (lead fl)) fl) 1 0 false.
Proof.
  induction fl as [|[|] fl IH]; intros gap ack; cbn [runs_full lead skipn].
  - do 2 f_equal. lia.
  - rewrite IH. do 2 f_equal. lia.
  - do 2 f_equal. lia.
Qed.

(* when the first number is a received one, first range and further ranges are [runs_full] from its start *)
Lemma runs_full_head : forall fl, nth 0 fl false = true ->
  runs_full fl 1 0 false = (0, Z.max (Z.of_nat (lead fl) - 1) 0) :: runs_full (skipn (S (lead fl)) fl) 1 0 false.
Proof.
  intros [|[|] fl] H; try discriminate H. cbn [runs_full lead skipn]. rewrite runs_full_lead. do 2 f_equal; lia.
Qed.

(* [fl] holds the received/not-received flags of largest, largest-1, ... (the reversed iterator): seen from
   largest + 2 with a gap of one, first range and further ranges are [runs_full] from its start;
   the frame has the first range and some of the further ranges, [r] being those left out *)
Lemma flags_frame : forall (fl : list bool) largest delay first ranges r,
  Z.of_nat (length fl) <= largest + 1 ->
  runs_full fl 1 0 false = (0, first) :: ranges ++ r ->
  exists rs, ack_iter (mkack largest delay first ranges) = Some rs /\
    (0 <= first /\ forall g a, In (g, a) ranges -> 0 <= g /\ 0 <= a) /\
    (forall x, in_ranges x rs = true -> flagged fl largest x) /\
    (r = [] -> forall x, flagged fl largest x -> in_ranges x rs = true).
Proof.
  intros fl largest delay first ranges r Hlen HF.
  destruct (runs_full_spec fl largest 1 0 false (largest + 2)) as (N & t & Hit & C); try lia.
  rewrite HF in N, Hit.
  destruct (iter_tail_app ((0, first) :: ranges) r _ _ Hit) as (rs & t2 & Hrs & ->).
  assert (0 <= largest) by (destruct fl; [discriminate HF | cbn [length] in Hlen; lia]).
  exists rs. split; [rewrite ack_iter_tail by assumption; exact Hrs|].
  split; [split; [apply (N 0 first); left; reflexivity | intros g a Hin; apply N; right; apply in_or_app; left; exact Hin]|].
  split.
  - intros x Hx. destruct (proj1 (C x)) as [Hp|Hf]; [|lia|exact Hf].
    unfold in_ranges in *. rewrite existsb_app, Hx. reflexivity.
  - intros -> x Hx. rewrite app_nil_r, Hrs in Hit. injection Hit as E. rewrite <- E in C. apply C. right. exact Hx.
Qed.

Definition ga_desc (j : rjournal) (largest : Z) : list rstate := rev (firstn (n_le j largest) (r_recs j)).

(* marking records AckSent or AckConfirmed leaves the window and the received numbers as they are *)
Definition same_flags (j j' : rjournal) : Prop :=
  r_off j' = r_off j /\ map tracked (r_recs j') = map tracked (r_recs j).

(* the frame that lists everything (what gen_ack_frame_util returns when capacity is no object) *)
Definition full_frame (j : rjournal) (now largest rt : Z) : ackframe :=
  let '(c, _, rest1) := first_loop 0 (ga_desc j largest) in
  mkack largest (Z.max 0 (now - rt) * 1000) (Z.max (c - 1) 0) (runs_full (map tracked rest1) 1 0 false).

Definition full_size (j : rjournal) (now largest rt : Z) : Z := ack_encoding_size (full_frame j now largest rt).

Lemma full_frame_eq : forall j now largest rt, let fl := map tracked (ga_desc j largest) in
  full_frame j now largest rt =
  mkack largest (Z.max 0 (now - rt) * 1000) (Z.max (Z.of_nat (lead fl) - 1) 0) (runs_full (skipn (S (lead fl)) fl) 1 0 false).
Proof.
  intros j now largest rt. unfold full_frame.
  destruct (first_loop 0 (ga_desc j largest)) as [[c d] r] eqn:FL.
  apply first_loop_spec in FL. destruct FL as (-> & -> & _). cbv zeta. rewrite skipn_map. reflexivity.
Qed.

Lemma gen_ack_spec : forall j now pn largest rt cap,
  match gen_ack j now pn largest rt cap with
  | GaPanic => True
  | GaErr j' => same_flags j j'
  | GaOk j' f => same_flags j j' /\ hdr_size (full_frame j now largest rt) <= cap /\ f = cut_frame cap (full_frame j now largest rt)
  end.
Proof.
  intros j now pn largest rt cap. unfold cut_frame, hdr_size. rewrite full_frame_eq. cbv zeta.
  unfold gen_ack, same_flags. fold (ga_desc j largest).
  set (delay := Z.max 0 (now - rt) * 1000).
  destruct (VARINT_LIMIT <=? largest); [exact I|].
  destruct (VARINT_LIMIT <=? delay); [exact I|].
  destruct (first_loop pn (ga_desc j largest)) as [[c done1] rest1] eqn:FL.
  apply first_loop_spec in FL. destruct FL as (-> & -> & Hmap).
  assert (Hrec : forall d, map tracked d = map tracked (ga_desc j largest) ->
     map tracked (rev d ++ skipn (n_le j largest) (r_recs j)) = map tracked (r_recs j)).
  { intros d Hd. unfold ga_desc in Hd. rewrite map_app, map_rev, Hd, <- map_rev, rev_involutive, <- map_app, firstn_skipn. reflexivity. }
  cbn [a_largest a_delay a_first a_ranges].
  set (min_len := 1 + varint_size largest + varint_size delay + varint_size _ + 1).
  destruct (cap <? min_len) eqn:Hmin; cbn [r_off r_recs].
  - split; [reflexivity|]. apply Hrec. exact Hmap.
  - apply Z.ltb_ge in Hmin.
    destruct (ack_fold pn _ 1 0 false _ 0) as [[[R [[g a] last]] cap2] rest'] eqn:AF. cbn [r_off r_recs].
    destruct (ack_fold_spec _ _ _ _ _ _ _ _ _ _ _ AF) as (Hm & Hr). rewrite <- skipn_map in Hr.
    split; [split; [reflexivity|]|].
    { apply Hrec. rewrite <- Hmap, !map_app, Hm. reflexivity. }
    split; [exact Hmin|]. f_equal. rewrite <- Hr, Z.add_0_l.
    destruct last; cbn [pending take_fit]; [|symmetry; apply app_nil_r].
    (* the final test `capacity >= size` is the test of [take_fit], the other way round *)
    rewrite Z.ltb_antisym. destruct (_ <=? cap2); [reflexivity | symmetry; apply app_nil_r].
Qed.

Definition flag (l : list rstate) (i : nat) : bool := nth i (map tracked l) false.

Definition has (j : rjournal) (q : Z) : bool :=
  (r_off j <=? q) && flag (r_recs j) (Z.to_nat (q - r_off j)).

Lemma has_range : forall j q, has j q = true -> r_off j <= q < r_next j.
Proof.
  unfold has, flag, r_next, r_len. intros j q H. apply andb_true_iff in H. destruct H as [H1 H2].
  apply Z.leb_le in H1. apply nth_true_lt in H2. rewrite map_length in H2. lia.
Qed.

Lemma flag_nth : forall l i, flag l i = tracked (nth i l REmpty).
Proof. intros. unfold flag. change false with (tracked REmpty). apply map_nth. Qed.

Lemma flag_nth_error : forall l i, flag l i = match nth_error l i with Some s => tracked s | None => false end.
Proof. unfold flag. induction l; destruct i; cbn; auto. Qed.

Lemma has_get : forall j q, has j q = match r_get j q with Some s => tracked s | None => false end.
Proof.
  intros j q. unfold has, r_get, r_next, r_len. rewrite flag_nth_error.
  destruct (Z.leb_spec (r_off j) q); [|reflexivity].
  destruct (Z.ltb_spec q (r_off j + Z.of_nat (length (r_recs j)))); [reflexivity|]. cbn [andb].
  replace (nth_error (r_recs j) (Z.to_nat (q - r_off j))) with (@None rstate); [reflexivity|].
  symmetry. apply nth_error_None. lia.
Qed.

Lemma ga_desc_flag : forall j largest i, r_off j <= largest < r_next j -> Z.of_nat i <= largest - r_off j ->
  flag (ga_desc j largest) i = has j (largest - Z.of_nat i).
Proof.
  unfold ga_desc, n_le, has, flag, r_next, r_len. intros j largest i Hr Hi.
  rewrite Z.min_l by lia. set (n := Z.to_nat (largest - r_off j + 1)).
  assert (Hn : length (firstn n (r_recs j)) = n) by (apply firstn_length_le; lia).
  change false with (tracked REmpty). rewrite !map_nth, rev_nth, Hn, nth_firstn_lt by lia.
  destruct (Z.leb_spec (r_off j) (largest - Z.of_nat i)); [|lia]. cbn [andb]. do 2 f_equal. lia.
Qed.

Lemma ga_desc_length : forall j largest, r_off j <= largest < r_next j ->
  length (ga_desc j largest) = Z.to_nat (largest - r_off j + 1).
Proof. unfold ga_desc, n_le, r_next, r_len. intros j largest Hr. rewrite rev_length, firstn_length. lia. Qed.

Lemma ga_desc_flagged : forall j largest x, r_off j <= largest < r_next j ->
  flagged (map tracked (ga_desc j largest)) largest x <-> x <= largest /\ has j x = true.
Proof.
  intros j largest x Hr. split.
  - intros (i & -> & Hi). pose proof (nth_true_lt _ _ Hi) as Hlt. rewrite map_length, ga_desc_length in Hlt by exact Hr.
    fold (flag (ga_desc j largest) i) in Hi. rewrite ga_desc_flag in Hi by lia. split; [lia|exact Hi].
  - intros [Hx Hh]. pose proof (has_range _ _ Hh). exists (Z.to_nat (largest - x)). split; [lia|].
    fold (flag (ga_desc j largest) (Z.to_nat (largest - x))). rewrite ga_desc_flag by lia. rewrite <- Hh. f_equal. lia.
Qed.

(* what a caller must guarantee about `largest`: it is below the window (rotated out) or its
   record is a received one.  Every registered number satisfies it (RInv below). *)
Definition ack_pre (j : rjournal) (largest : Z) : Prop :=
  0 <= largest /\ (largest < r_off j \/ has j largest = true).

(* [x = largest]: a `largest` that is rotated out of the window is listed alone *)
Lemma full_frame_spec : forall j now largest rt f r, 0 <= r_off j -> ack_pre j largest ->
  full_frame j now largest rt = mkack (a_largest f) (a_delay f) (a_first f) (a_ranges f ++ r) ->
  exists rs, ack_iter f = Some rs /\
    0 <= a_first f /\ (forall g a, In (g, a) (a_ranges f) -> 0 <= g /\ 0 <= a) /\
    (forall x, in_ranges x rs = true -> x = largest \/ has j x = true) /\
    (r = [] -> forall x, x <= largest -> has j x = true -> in_ranges x rs = true).
Proof.
  intros j now largest rt [fl fd ff fr] r Hoff [Hl0 Hpre]. rewrite full_frame_eq. cbn [a_largest a_delay a_first a_ranges].
  intros [= <- <- <- HF].
  destruct Hpre as [Hrot|Hin].
  - (* rotated out: the iterator is empty, the frame is `largest` alone *)
    assert (Hd : ga_desc j largest = []).
    { unfold ga_desc, n_le, r_len. replace (Z.to_nat _) with O by lia. reflexivity. }
    rewrite Hd in *. cbn in HF. symmetry in HF. apply app_eq_nil in HF. destruct HF as [-> ->].
    unfold ack_iter. cbn. destruct (Z.ltb_spec largest 0); [lia|].
    eexists. split; [reflexivity|]. split; [lia|]. split; [intros ? ? []|]. split.
    + intros x Hx. cbn in Hx. rewrite orb_false_r in Hx. apply andb_true_iff in Hx. rewrite !Z.leb_le in Hx. cbn [fst snd] in Hx. left. lia.
    + intros _ x Hx Hh. apply has_range in Hh. lia.
  - pose proof (has_range _ _ Hin) as Hr.
    set (ff := Z.max _ 0).
    destruct (flags_frame (map tracked (ga_desc j largest)) largest (Z.max 0 (now - rt) * 1000) ff fr r) as (rs & Hit & Hf & Hs & Hc).
    { rewrite map_length, ga_desc_length by exact Hr. lia. }
    { rewrite runs_full_head; [f_equal; exact HF|].
      fold (flag (ga_desc j largest) 0). rewrite ga_desc_flag, Z.sub_0_r by lia. exact Hin. }
    exists rs. split; [exact Hit|]. split; [apply Hf|]. split; [apply Hf|]. split.
    + intros x Hx. right. apply (ga_desc_flagged _ _ _ Hr), Hs, Hx.
    + intros Hnil x Hx Hh. apply (Hc Hnil), (ga_desc_flagged _ _ _ Hr). auto.
Qed.

Inductive rev_ :=
| RvRcvd (now pn : Z) (el : bool) (pto : Z)
| RvGenAck (now pn largest rt cap : Z)
| RvPeerAck (now : Z) (f : ackframe).

Definition rv_ok (e : rev_) : Prop := match e with RvRcvd _ pn _ _ => 0 <= pn | _ => True end.   (* u64 *)

(* [reg] is the log of the packet numbers passed to on_rcvd_pn *)
Definition rv_step (j : rjournal) (reg : list Z) (e : rev_) : option (rjournal * list Z) :=
  match e with
  | RvRcvd now pn el pto => match on_rcvd_pn j now pn el pto with Some j' => Some (j', pn :: reg) | None => None end
  | RvGenAck now pn largest rt cap =>
      match gen_ack j now pn largest rt cap with
      | GaOk j' _ | GaErr j' => Some (j', reg)
      | GaPanic => None
      end
  | RvPeerAck now f => match on_rcvd_ack j now f with Some j' => Some (j', reg) | None => None end
  end.

Fixpoint rv_run (j : rjournal) (reg : list Z) (h : list rev_) : option (rjournal * list Z) :=
  match h with
  | [] => Some (j, reg)
  | e :: r => match rv_step j reg e with Some (j', reg') => rv_run j' reg' r | None => None end
  end.

Definition rreach (h : list rev_) (j : rjournal) (reg : list Z) : Prop :=
  Forall rv_ok h /\ exists mad, rv_run (rj_new mad) [] h = Some (j, reg).

(* the received records of the window are the registered numbers not yet rotated out *)
Record RInv (j : rjournal) (reg : list Z) : Prop := {
  ri_off : 0 <= r_off j;
  ri_reg : forall q, In q reg -> ack_pre j q;
  ri_has : forall q, has j q = true -> In q reg }.

Lemma has_ext : forall j j', same_flags j j' -> forall q, has j' q = has j q.
Proof. intros j j' [Ho Hm] q. unfold has, flag. rewrite Ho, Hm. reflexivity. Qed.

Lemma RInv_ext : forall j j' reg, same_flags j j' -> RInv j reg -> RInv j' reg.
Proof.
  intros j j' reg S [Hoff Hreg Hhas]. pose proof (has_ext j j' S) as He. destruct S as [Ho _].
  constructor.
  - rewrite Ho. exact Hoff.
  - intros q Hq. unfold ack_pre. rewrite Ho, He. exact (Hreg q Hq).
  - intros q Hq. rewrite He in Hq. exact (Hhas q Hq).
Qed.

Lemma nth_set_nth : forall A k (x : A) l i d, (k < length l)%nat ->
  nth i (set_nth k x l) d = if Nat.eqb i k then x else nth i l d.
Proof.
  induction k; destruct l; cbn; intros i d H; try lia.
  - destruct i; reflexivity.
  - destruct i; [reflexivity|]. cbn. apply IHk. lia.
Qed.

(* resize(pos, Empty); push_back *)
Lemma nth_extend : forall A (l : list A) k x d i, (length l <= k)%nat ->
  nth i (l ++ repeat d (k - length l) ++ [x]) d = if Nat.eqb i k then x else nth i l d.
Proof.
  intros A l k x d i Hk. destruct (Nat.eqb_spec i k) as [->|Hne].
  - rewrite !app_nth2, repeat_length by (rewrite ?repeat_length; lia).
    replace (k - length l - (k - length l))%nat with O by lia. reflexivity.
  - destruct (Nat.lt_ge_cases i (length l)) as [Hi|Hi]; [apply app_nth1; exact Hi|].
    rewrite app_nth2, (nth_overflow l) by exact Hi.
    destruct (Nat.lt_ge_cases i k); [rewrite app_nth1 by (rewrite repeat_length; lia); apply nth_repeat|].
    apply nth_overflow. rewrite app_length, repeat_length. cbn. lia.
Qed.

Lemma on_rcvd_pn_has : forall j now pn el pto j',
  on_rcvd_pn j now pn el pto = Some j' ->
  r_off j' = r_off j /\ forall q, has j' q = (q =? pn) && (r_off j <=? pn) || has j q.
Proof.
  intros j now pn el pto j'. unfold on_rcvd_pn.
  set (st := RRecv _ _ _). set (e' := if el && _ then _ else _).
  (* inside the window and beyond it alike, the flag at the position of pn is set *)
  assert (Hset : forall recs', r_off j <= pn ->
     (forall i, flag recs' i = Nat.eqb i (Z.to_nat (pn - r_off j)) || flag (r_recs j) i) ->
     forall q, has (mkrj (r_off j) recs' (r_mad j) (r_incl j) e') q = (q =? pn) && (r_off j <=? pn) || has j q).
  { intros recs' Hle Hfl q. unfold has. cbn [r_off r_recs]. rewrite Hfl.
    destruct (Z.leb_spec (r_off j) pn); [|lia]. rewrite andb_true_r.
    destruct (Z.leb_spec (r_off j) q); cbn [andb]; destruct (Z.eqb_spec q pn) as [->|]; try lia; try reflexivity.
    - rewrite Nat.eqb_refl. reflexivity.
    - replace (Nat.eqb _ _) with false by (symmetry; apply Nat.eqb_neq; lia). reflexivity. }
  unfold r_next, r_len.
  destruct (Z.leb_spec (r_off j) pn) as [Hle|Hlt]; cbn [andb].
  - destruct (Z.ltb_spec pn (r_off j + Z.of_nat (length (r_recs j)))) as [Hin|Hout].
    + intros [= <-]. split; [reflexivity|]. apply Hset; [exact Hle|]. intros i.
      rewrite !flag_nth, nth_set_nth by lia. destruct (Nat.eqb i _); reflexivity.
    + destruct (LIMIT <? pn); [discriminate|]. destruct (Z.ltb_spec pn (r_off j)); [lia|].
      intros [= <-]. split; [reflexivity|]. apply Hset; [exact Hle|]. intros i.
      rewrite !flag_nth, nth_extend by lia. destruct (Nat.eqb i _); reflexivity.
  - destruct (LIMIT <? pn); [discriminate|]. destruct (Z.ltb_spec pn (r_off j)); [|lia].
    intros [= <-]. split; [reflexivity|]. intros q. rewrite andb_false_r. reflexivity.
Qed.

Lemma on_rcvd_pn_inv : forall j reg now pn el pto j', RInv j reg -> 0 <= pn ->
  on_rcvd_pn j now pn el pto = Some j' -> RInv j' (pn :: reg).
Proof.
  intros j reg now pn el pto j' [Hoff Hreg Hhas] Hpn H.
  destruct (on_rcvd_pn_has _ _ _ _ _ _ H) as [Ho Hh].
  constructor.
  - rewrite Ho. exact Hoff.
  - intros q Hq. unfold ack_pre. rewrite Ho, Hh. destruct Hq as [<-|Hq].
    + split; [exact Hpn|]. rewrite Z.eqb_refl. destruct (Z.leb_spec (r_off j) pn); [right; reflexivity | left; assumption].
    + destruct (Hreg q Hq) as [Hq0 [Hc|Hc]]; (split; [exact Hq0|]); [left; exact Hc | right; rewrite Hc; apply orb_true_r].
  - intros q Hq. rewrite Hh in Hq. apply orb_true_iff in Hq. destruct Hq as [Hq|Hq].
    + apply andb_true_iff in Hq. destruct Hq as [Hq _]. apply Z.eqb_eq in Hq. left. symmetry. exact Hq.
    + right. apply Hhas. exact Hq.
Qed.

Lemma drop_expired_spec : forall now l off off' l', drop_expired now off l = (off', l') ->
  exists k, off' = off + Z.of_nat k /\ l' = skipn k l.
Proof.
  induction l as [|s r IH]; cbn [drop_expired]; intros off off' l' H.
  - injection H as <- <-. exists O. cbn. split; [lia|reflexivity].
  - destruct (could_expire now s).
    + destruct (IH _ _ _ H) as (k & A & B). exists (S k). split; [lia|exact B].
    + injection H as <- <-. exists O. split; [lia|reflexivity].
Qed.

Lemma confirm_tracked : forall acked s, tracked (confirm acked s) = tracked s.
Proof. destruct s; cbn; auto. destruct (existsb _ pns); reflexivity. Qed.

Lemma on_rcvd_ack_has : forall j now f j', on_rcvd_ack j now f = Some j' ->
  r_off j <= r_off j' /\ forall q, has j' q = (r_off j' <=? q) && has j q.
Proof.
  intros j now f j'. unfold on_rcvd_ack. destruct (ack_iter f) as [rs|]; [|discriminate].
  intros [= <-]. unfold rotate_queue. cbn [r_off r_recs r_mad r_incl r_earliest].
  set (acked := filter (fun p => in_ranges p rs) (r_incl j)).
  destruct (drop_expired now (r_off j) (map (confirm acked) (r_recs j))) as [off' l'] eqn:D.
  destruct (drop_expired_spec _ _ _ _ _ D) as (k & -> & ->).
  unfold has, flag. cbn [r_off r_recs]. split; [lia|]. intros q.
  destruct (Z.leb_spec (r_off j + Z.of_nat k) q); [|reflexivity]. destruct (Z.leb_spec (r_off j) q); [|lia]. cbn [andb].
  rewrite <- skipn_map, nth_skipn, map_map. replace (k + Z.to_nat (q - (r_off j + Z.of_nat k)))%nat with (Z.to_nat (q - r_off j)) by lia.
  f_equal. apply map_ext. intros s. apply confirm_tracked.
Qed.

Lemma on_rcvd_ack_inv : forall j reg now f j', RInv j reg -> on_rcvd_ack j now f = Some j' -> RInv j' reg.
Proof.
  intros j reg now f j' [Hoff Hreg Hhas] H. destruct (on_rcvd_ack_has _ _ _ _ H) as [Ho Hh].
  constructor; unfold ack_pre.
  - lia.
  - intros q Hq. rewrite Hh. destruct (Hreg q Hq) as [Hq0 [Hc|Hc]]; (split; [exact Hq0|]); [left; lia|].
    destruct (Z.leb_spec (r_off j') q); [right; exact Hc | left; assumption].
  - intros q Hq. rewrite Hh in Hq. apply andb_true_iff in Hq. apply Hhas, Hq.
Qed.

Lemma RInv_init : forall mad, RInv (rj_new mad) [].
Proof.
  intros mad. constructor; cbn.
  - lia.
  - intros q [].
  - intros q H. apply has_range in H. cbn in H. lia.
Qed.

Lemma rv_step_inv : forall j reg e j' reg', RInv j reg -> rv_ok e -> rv_step j reg e = Some (j', reg') -> RInv j' reg'.
Proof.
  intros j reg e j' reg' I Ok H. destruct e; cbn [rv_step rv_ok] in *.
  - destruct (on_rcvd_pn j now pn el pto) as [jn|] eqn:E; [|discriminate]. injection H as <- <-.
    eapply on_rcvd_pn_inv; eauto.
  - pose proof (gen_ack_spec j now pn largest rt cap) as S.
    destruct (gen_ack j now pn largest rt cap) as [jn fr|jn|]; try discriminate;
      injection H as <- <-; (eapply RInv_ext; [apply S|exact I]).
  - destruct (on_rcvd_ack j now f) as [jn|] eqn:E; [|discriminate]. injection H as <- <-.
    eapply on_rcvd_ack_inv; eauto.
Qed.

Lemma rv_run_inv : forall h j reg j' reg', RInv j reg -> Forall rv_ok h ->
  rv_run j reg h = Some (j', reg') -> RInv j' reg'.
Proof.
  induction h as [|e r IH]; cbn; intros j reg j' reg' I Ok H.
  - injection H as <- <-. exact I.
  - inversion Ok; subst. destruct (rv_step j reg e) as [[j1 reg1]|] eqn:E; [|discriminate].
    eapply IH; [eapply rv_step_inv; eauto | assumption | exact H].
Qed.

Lemma rreach_inv : forall h j reg, rreach h j reg -> RInv j reg.
Proof. intros h j reg [Ok [mad H]]. eapply rv_run_inv; [apply RInv_init | exact Ok | exact H]. Qed.

Lemma rv_run_app : forall h1 h2 j reg,
  rv_run j reg (h1 ++ h2) = match rv_run j reg h1 with Some (j1, reg1) => rv_run j1 reg1 h2 | None => None end.
Proof.
  induction h1 as [|e r IH]; cbn; intros; auto.
  destruct (rv_step j reg e) as [[j1 reg1]|]; auto.
Qed.

Lemma rv_run_reg_mono : forall h j reg j' reg' q, In q reg -> rv_run j reg h = Some (j', reg') -> In q reg'.
Proof.
  induction h as [|e r IH]; cbn; intros j reg j' reg' q Hq H.
  - injection H as <- <-. exact Hq.
  - destruct (rv_step j reg e) as [[j1 reg1]|] eqn:E; [|discriminate].
    eapply IH; [|exact H].
    destruct e; cbn [rv_step] in E.
    + destruct (on_rcvd_pn j now pn el pto); [|discriminate]. injection E as <- <-. right. exact Hq.
    + destruct (gen_ack j now pn largest rt cap); try discriminate; injection E as <- <-; exact Hq.
    + destruct (on_rcvd_ack j now f); [|discriminate]. injection E as <- <-. exact Hq.
Qed.

(* a number below the window is TooOld, a received record of the window a Duplicate *)
Lemma decode_pn_fresh : forall j pn p, ack_pre j pn -> decode_pn j p <> DpnOk pn.
Proof.
  intros j pn p [_ Hc]. rewrite has_get in Hc. unfold decode_pn.
  destruct (decode p (r_next j)) as [v|]; [|discriminate].
  destruct (Z.ltb_spec v (r_off j)); [discriminate|].
  destruct (r_get j v) as [[]|] eqn:G; try discriminate; intros [= ->]; rewrite G in Hc.
  - destruct Hc; [lia|discriminate].
  - destruct Hc; [lia|discriminate].
Qed.

(* c10_ack_sound, c10_ack_fields, c10_ack_complete: every number a generated frame enumerates
   was registered (if `largest` is rotated out, the frame lists `largest` alone); no field is
   negative, so the u32 `gap - 1` / `ack - 1` / saturating first-range computations never underflow;
   with a capacity of at least the size of the frame that lists everything, nothing is left out *)
Lemma gen_ack_frame : forall j reg now pn largest rt cap j' f,
  RInv j reg -> In largest reg ->
  gen_ack j now pn largest rt cap = GaOk j' f ->
  exists rs, ack_iter f = Some rs /\ (forall x, in_ranges x rs = true -> In x reg) /\
    (0 <= a_first f /\ forall g a, In (g, a) (a_ranges f) -> 0 <= g /\ 0 <= a) /\
    (full_size j now largest rt <= cap -> forall x, x <= largest -> has j x = true -> in_ranges x rs = true).
Proof.
  intros j reg now pn largest rt cap j' f [Hoff Hreg Hhas] Hin H.
  pose proof (gen_ack_spec j now pn largest rt cap) as S. rewrite H in S. destruct S as (_ & Hh & Ef).
  destruct (cut_frame_spec _ _ _ Hh Ef) as (_ & r & Hfull & Hnil).
  destruct (full_frame_spec _ _ _ _ _ _ Hoff (Hreg _ Hin) Hfull) as (rs & Hit & Hf & Hr & Hs & Hc).
  exists rs. split; [exact Hit|]. split; [|split; [split; assumption|]].
  - intros x Hx. destruct (Hs x Hx) as [->|Hx']; auto.
  - unfold full_size. intros Hcap. exact (Hc (Hnil Hcap)).
Qed.
