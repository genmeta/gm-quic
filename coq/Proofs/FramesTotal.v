(* Totality of the frame decoder (property C03, frames): no Panic outcome is reachable and every successful parse
   consumes between 1 and |input| bytes.  [safe] and [yields] are closed under the parser combinators, so one walk over
   [be_body] gives both; [Section Reader] is the termination argument that FrameReader and PacketReader share. *)
From Coq Require Import List ZArith Lia.
From GQ Require Import Lib.Wire Model.Varint Model.Frames Proofs.Wire Proofs.Frames.
Import ListNotations.
Local Open Scope Z_scope.

Definition safe {A} (p : parser A) : Prop :=
  forall bs, (forall s, p bs <> Panic s) /\ (forall v r, p bs = Ok v r -> zlen r <= zlen bs).
Definition strict {A} (p : parser A) : Prop :=
  forall bs v r, p bs = Ok v r -> zlen r < zlen bs.

Definition yields {A} (P : A -> Prop) (p : parser A) : Prop :=
  safe p /\ forall bs v r, p bs = Ok v r -> P v.

Lemma safe_no_panic {A} (p : parser A) : safe p -> forall bs s, p bs <> Panic s.
Proof. intros H bs. apply (H bs). Qed.
Lemma safe_le {A} (p : parser A) : safe p -> forall bs v r, p bs = Ok v r -> zlen r <= zlen bs.
Proof. intros H bs. apply (H bs). Qed.

Lemma safe_ret {A} (v : A) : safe (ret v).
Proof. intro bs. unfold ret. split; [discriminate|]. intros v' r [= _ <-]. lia. Qed.

Lemma safe_bad {A} k : safe (fun _ : list Z => @Bad A k).
Proof. intro bs. split; discriminate. Qed.
Lemma safe_inc {A} : safe (fun _ : list Z => @Incomplete A).
Proof. intro bs. split; discriminate. Qed.

Lemma safe_bind {A B} (p : parser A) (f : A -> parser B) :
  safe p -> (forall v, safe (f v)) -> safe (bind p f).
Proof.
  intros Hp Hf bs. unfold bind. destruct (p bs) as [v r| | |s] eqn:E; try (split; discriminate).
  - split; [apply safe_no_panic, Hf|].
    intros v' r' H. apply (safe_le _ (Hf v)) in H. apply (safe_le _ Hp) in E. lia.
  - elim (safe_no_panic _ Hp _ _ E).
Qed.

Lemma strict_bind_l {A B} (p : parser A) (f : A -> parser B) :
  strict p -> (forall v, safe (f v)) -> strict (bind p f).
Proof.
  intros Hp Hf bs v r. unfold bind. destruct (p bs) as [v0 r0| | |s] eqn:E; try discriminate.
  intro H. apply (safe_le _ (Hf v0)) in H. apply Hp in E. lia.
Qed.

Lemma safe_if {A} (b : bool) (p q : parser A) : safe p -> safe q -> safe (if b then p else q).
Proof. destruct b; auto. Qed.

Lemma yields_ret {A} (P : A -> Prop) v : P v -> yields P (ret v).
Proof. intro H. split; [apply safe_ret|]. intros bs v' r [= <- _]. exact H. Qed.

Lemma yields_bad {A} (P : A -> Prop) k : yields P (fun _ => Bad k).
Proof. split; [apply safe_bad|discriminate]. Qed.

Lemma yields_bind {A B} (P : B -> Prop) (p : parser A) (f : A -> parser B) :
  safe p -> (forall v, yields P (f v)) -> yields P (bind p f).
Proof.
  intros Hp Hf. split; [apply safe_bind; [exact Hp|intro v; apply Hf]|].
  intros bs v r. unfold bind. destruct (p bs) as [x rest| | |]; try discriminate. apply Hf.
Qed.

Lemma yields_if {A} (P : A -> Prop) (b : bool) (p q : parser A) :
  yields P p -> yields P q -> yields P (if b then p else q).
Proof. destruct b; auto. Qed.

Lemma strict_be_varint : strict be_varint.
Proof.
  intros bs v r. unfold be_varint. destruct bs as [|b t]; [discriminate|].
  match goal with |- context [get_be ?n 0 ?l] => destruct (get_be n 0 l) as [[w rest]|] eqn:E end;
    [|discriminate].
  intros [= _ <-]. apply get_be_len in E. revert E. generalize (b / 64). intros p E.
  destruct (p =? 0); [lia|]. destruct (p =? 1); [lia|]. destruct (p =? 2); lia.
Qed.

Lemma safe_be_varint : safe be_varint.
Proof.
  intro bs. split.
  - unfold be_varint. destruct bs; [discriminate|]. destruct (get_be _ 0 _) as [[w rest]|]; discriminate.
  - intros v r H. apply strict_be_varint in H. lia.
Qed.

Lemma safe_take_s n : safe (take_s n).
Proof.
  intro bs. unfold take_s. destruct (zlen bs <? n); split; try discriminate.
  intros v r [= _ <-]. apply zlen_skipn_le.
Qed.
Lemma safe_take_c n : safe (take_c n).
Proof.
  intro bs. unfold take_c. destruct (zlen bs <? n); split; try discriminate.
  intros v r [= _ <-]. apply zlen_skipn_le.
Qed.
Lemma safe_be_uint_s n : safe (be_uint_s n).
Proof.
  intro bs. unfold be_uint_s. destruct (get_be n 0 bs) as [[v r]|] eqn:E; split; try discriminate.
  intros v' r' [= _ <-]. apply get_be_len in E. lia.
Qed.
Lemma safe_be_uint_c n : safe (be_uint_c n).
Proof.
  intro bs. unfold be_uint_c. destruct (get_be n 0 bs) as [[v r]|] eqn:E; split; try discriminate.
  intros v' r' [= _ <-]. apply get_be_len in E. lia.
Qed.

(* [auto n with parse] decides [safe] / [yields] of a parser written with the combinators over the primitives; n has to
   cover the nesting of its binds *)
Create HintDb parse discriminated.
#[export] Hint Resolve safe_ret safe_bad safe_inc safe_bind safe_if yields_ret yields_bad yields_bind yields_if
  safe_be_varint safe_take_s safe_take_c safe_be_uint_s safe_be_uint_c : parse.

Lemma safe_be_cid : safe be_cid.
Proof. unfold be_cid. auto with parse. Qed.

Lemma safe_be_addr v6 : safe (be_addr v6).
Proof. unfold be_addr. auto with parse. Qed.

Lemma safe_be_nat : safe be_nat.
Proof. unfold be_nat. apply safe_bind; [apply safe_be_varint|intro v]. destruct (nat_type_of v); auto with parse. Qed.

Lemma safe_be_ranges : forall fuel n, safe (be_ranges n fuel).
Proof. induction fuel as [|fuel IH]; intros [|n]; cbn [be_ranges]; auto 6 with parse. Qed.

Lemma safe_be_ack ecn : safe (be_ack ecn).
Proof.
  intro bs. unfold be_ack.
  refine (safe_bind be_varint _ safe_be_varint _ bs). intro l.
  apply safe_bind; [apply safe_be_varint|intro d].
  apply safe_bind; [apply safe_be_varint|intro count].
  apply safe_bind; [apply safe_be_varint|intro fr].
  intro bs'. refine (safe_bind _ _ (safe_be_ranges _ _) _ bs'). intro rs.
  destruct ecn; auto 8 with parse.
Qed.

#[export] Hint Resolve safe_be_cid safe_be_addr safe_be_nat safe_be_ack : parse.

(* what complete_frame guarantees of the frame it hands on: an ACK passed AckFrame::is_valid *)
Definition checked (f : frame) : Prop :=
  match f with Ack l _ fr rs _ => ack_valid l fr rs = true | _ => True end.

Lemma yields_ack_verify f : yields checked (ack_verify f).
Proof.
  destruct f; cbn [ack_verify]; try (apply yields_ret; exact I).
  destruct (ack_valid _ _ _) eqn:V; [apply yields_ret; exact V|apply yields_bad].
Qed.

(* a data body cut out of the remaining input *)
Lemma yields_cut {A} (P : A -> Prop) (mk : list Z -> A) n : (forall d, P (mk d)) ->
  yields P (fun bs => if zlen bs <? n then Incomplete else Ok (mk (firstn (Z.to_nat n) bs)) (skipn (Z.to_nat n) bs)).
Proof.
  intro H. split; [intro bs; split|intros bs v r]; destruct (zlen bs <? n); try discriminate.
  - intros v r [= _ <-]. apply zlen_skipn_le.
  - intros [= <- _]. apply H.
Qed.

Lemma yields_stream_tail (P : frame -> Prop) (lb : bool) (mk : list Z -> frame) off : (forall d, P (mk d)) ->
  yields P (fun bs =>
         match (if lb then be_varint bs else Ok (zlen bs) bs) with
         | Ok len rest =>
             if VARINT_MAX <? off + len then Bad EK_TooLarge
             else if zlen rest <? len then Incomplete
             else Ok (mk (firstn (Z.to_nat len) rest)) (skipn (Z.to_nat len) rest)
         | Incomplete => Incomplete
         | Bad k => Bad k
         | Panic st => Panic st
         end).
Proof.
  intro H.
  assert (T : forall len, yields P (fun rest =>
              if VARINT_MAX <? off + len then Bad EK_TooLarge
              else if zlen rest <? len then Incomplete
              else Ok (mk (firstn (Z.to_nat len) rest)) (skipn (Z.to_nat len) rest))).
  { intro len. destruct (VARINT_MAX <? off + len); [apply yields_bad|apply yields_cut, H]. }
  destruct lb.
  - exact (yields_bind P be_varint _ safe_be_varint T).
  - split; intro bs; apply (T (zlen bs)).
Qed.

Lemma yields_all {A} (P : A -> Prop) (mk : list Z -> A) : (forall d, P (mk d)) -> yields P (fun bs => Ok (mk bs) []).
Proof.
  intro H. split; [intro bs; split; [discriminate|intros v r]|intros bs v r]; intros [= <- <-]; [apply zlen_nonneg|apply H].
Qed.

#[export] Hint Resolve yields_ack_verify yields_cut yields_stream_tail yields_all : parse.
#[export] Hint Extern 0 (checked _) => exact I : parse.

Lemma yields_be_close_quic : yields checked be_close_quic.
Proof.
  unfold be_close_quic. apply yields_bind; [apply safe_be_varint|intro k]. apply yields_if; [apply yields_bad|].
  assert (Y : forall ft, yields checked (n <- be_varint ;; r <- take_c n ;; ret (CloseQuic k ft r)))
    by auto 6 with parse.
  (* the frame-type varint is not read through [bind]: all its failures become one error kind *)
  split.
  - intro bs. destruct (be_varint bs) as [ft rest| | |s'] eqn:E; try (split; discriminate).
    + apply strict_be_varint in E. destruct (ft_of_code ft); [|split; discriminate].
      split; [apply safe_no_panic, Y|]. intros v r H. apply (safe_le _ (proj1 (Y ft))) in H. lia.
    + elim (safe_no_panic _ safe_be_varint _ _ E).
  - intros bs v r. destruct (be_varint bs) as [ft rest| | |s']; try discriminate.
    destruct (ft_of_code ft); [apply Y|discriminate].
Qed.

Lemma yields_be_new_cid : yields checked be_new_cid.
Proof.
  unfold be_new_cid. do 2 (apply yields_bind; [apply safe_be_varint|intro]).
  apply yields_if; [apply yields_bad|]. apply yields_bind; [apply safe_be_cid|intros [|c cid]]; auto 6 with parse.
Qed.

Lemma be_body_yields t : yields checked (be_body t).
Proof.
  destruct t; cbn [be_body]; auto 9 with parse.
  - apply yields_be_new_cid.
  - destruct app; [unfold be_close_app; auto 6 with parse|apply yields_be_close_quic].
Qed.

Lemma safe_be_body t : safe (be_body t).
Proof. apply (be_body_yields t). Qed.

Lemma be_frame_ok p bs c f t : be_frame p bs = FOk c f t ->
  exists code remain rest, be_varint bs = Ok code remain /\ ft_of_code code = Some t /\ belongs t p = true /\
                           be_body t remain = Ok f rest /\ c = zlen bs - zlen rest.
Proof.
  unfold be_frame. destruct (be_varint bs) as [code remain| | |] eqn:Ev; try discriminate.
  destruct (ft_of_code code) as [t'|] eqn:Et; [|discriminate].
  destruct (belongs t' p) eqn:Hb; cbn [negb]; [|discriminate].
  destruct (be_body t' remain) as [f' rest| | |] eqn:Eb; try discriminate.
  intros [= <- <- <-]. exists code, remain, rest. auto.
Qed.

Lemma be_frame_checked p bs c f t : be_frame p bs = FOk c f t -> checked f.
Proof.
  intro H. destruct (be_frame_ok _ _ _ _ _ H) as (code & remain & rest & _ & _ & _ & Eb & _).
  exact (proj2 (be_body_yields t) _ _ _ Eb).
Qed.

(* FrameReader and PacketReader are one loop: decode at the head of the buffer and, after a success, go on behind
   the bytes it consumed.  [rd] is such a loop over the decoder [step]; [adv r] is what a success [r] consumed, [w r]
   the same with 0 for a failure.  The loop never needs more than |buffer| rounds, so extra fuel changes nothing. *)
Section Reader.
  Variables (R : Type) (step : list Z -> R) (adv : R -> option Z) (w : R -> Z) (rd : nat -> list Z -> list R).
  Hypothesis rd_nil : forall fuel, rd fuel [] = [].
  Hypothesis rd_S : forall fuel bs, bs <> [] ->
    rd (S fuel) bs = match adv (step bs) with
                     | Some c => step bs :: rd fuel (skipn (Z.to_nat c) bs)
                     | None => [step bs]
                     end.
  Hypothesis adv_bound : forall bs c, adv (step bs) = Some c -> 0 < c <= zlen bs.
  Hypothesis w_adv : forall r, w r = match adv r with Some c => c | None => 0 end.

  Lemma reader_spec : forall fuel bs, (length bs < fuel)%nat ->
    fold_right (fun r a => w r + a) 0 (rd fuel bs) <= zlen bs /\
    (forall r, In r (rd fuel bs) -> exists bs', r = step bs') /\
    rd (S fuel) bs = rd fuel bs.
  Proof.
    induction fuel as [|fuel IH]; intros bs Hf; [inversion Hf|].
    destruct (list_eq_dec Z.eq_dec bs []) as [->|Hne].
    - rewrite !rd_nil. split; [reflexivity|]. split; [intros r []|reflexivity].
    - rewrite !rd_S by exact Hne.
      destruct (adv (step bs)) as [c|] eqn:Ea; cbn [fold_right]; rewrite w_adv, Ea.
      + pose proof (adv_bound _ _ Ea) as Hc.
        destruct (IH (skipn (Z.to_nat c) bs)) as (I1 & I2 & I3).
        { rewrite skipn_length. unfold zlen in Hc. lia. }
        rewrite I3. rewrite skipn_zlen_le in I1 by lia.
        split; [lia|]. split; [|reflexivity]. intros r [<-|Hin]; eauto.
      + split; [pose proof (zlen_nonneg bs); lia|].
        split; [|reflexivity]. intros r [<-|[]]. eauto.
  Qed.

  Lemma reader_whole bs :
    fold_right (fun r a => w r + a) 0 (rd (S (length bs)) bs) <= zlen bs /\
    (forall r, In r (rd (S (length bs)) bs) -> exists bs', r = step bs') /\
    (forall extra, rd (extra + S (length bs)) bs = rd (S (length bs)) bs).
  Proof.
    destruct (reader_spec (S (length bs)) bs) as (H1 & H2 & _); [lia|].
    split; [exact H1|]. split; [exact H2|].
    induction extra as [|extra IH]; [reflexivity|].
    rewrite <- IH. apply reader_spec. lia.
  Qed.
End Reader.

Definition consumed_of (r : fres) : Z := match r with FOk c _ _ => c | _ => 0 end.
Definition total_consumed (rs : list fres) : Z := fold_right (fun r a => consumed_of r + a) 0 rs.
