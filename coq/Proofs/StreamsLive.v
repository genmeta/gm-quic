(* Liveness of one flow (property C01, progress clause): from every reachable state without reset whose
   written length is within the stream window ([round_ok]), once the sender has nothing more to emit, delivering
   and acknowledging every frame of the pool makes everything written readable, reports the end after the last
   byte when shutdown was called, and completes flush / shutdown.  [LI] is the invariant behind it, for a flow
   whose sender is not reset: everything sent is in the pool, each sender state promises what the next
   acknowledgement needs, an open recver is still in the input set.  The round is the emit loop between three
   phases of feedback ([fkind], [run_phase]): loss reports, deliveries, acknowledgements.  A phase only adds to
   the bytes the recver holds, or the sender has seen acknowledged, and a complete recver or sender has them all:
   the states that ignore feedback are no case apart. *)
From Coq Require Import List NArith ZArith Bool Lia.
From GQ Require Import Lib.Base Lib.Slice Model.SendBuf Model.RecvBuf Model.Streams Proofs.Streams.
Import ListNotations.
Local Open Scope N_scope.

Definition covers (P : list fframe) (i : N) : Prop :=
  exists off len fin d, In (FrS off len fin d) P /\ off <= i < off + len.
Definition has_fin (P : list fframe) : Prop := exists off len d, In (FrS off len true d) P.

Definition frames_upto (P : list fframe) (n : N) : Prop :=
  (forall off len fin d, In (FrS off len fin d) P -> off + len <= n) /\ (forall i, i < n -> covers P i).

(* Before the FIN goes out the shutdown flag is the ghost "shutdown was called" (so a declined packet means
   it was not called); in DataSent the acknowledgements seen so far do not complete the stream (else the state
   were DataRcvd) *)
Definition promises (st : sstate) (s : sender) (P : list fframe) : Prop :=
  match st with
  | SReady => sn_shutw s = sn_shutcalled s /\ sn_inset s = true /\ forall off len fin d, ~ In (FrS off len fin d) P
  | SSending => sn_shutw s = sn_shutcalled s /\ sn_inset s = true
  | SDataSent => has_fin P /\ sent (sn_buf s) = written (sn_buf s) /\
                 ~ (retained (sn_buf s) = 0 /\ sn_fin s = FinRcvd) /\ sn_inset s = true
  | SDataRcvd => has_fin P /\ sent (sn_buf s) = written (sn_buf s) /\ retained (sn_buf s) = 0
  | SResetSent | SResetRcvd => True
  end.

Definition LS (s : sender) (P : list fframe) : Prop := frames_upto P (sent (sn_buf s)) /\ promises (sn_st s) s P.

Definition LR (r : recver) : Prop :=
  (forall f, rc_st r = RSizeKnown f -> nread (rc_buf r) + available (rc_buf r) <> f) /\
  (rc_st r = RRecv \/ (exists f, rc_st r = RSizeKnown f) -> rc_inset r = true).

Definition md (s : sender) : N := max_data (sn_buf s).

(* nothing is promised of a flow whose sender is reset; the sender only moves forward, so a flow that is not
   reset never was *)
Definition LI (fl : flow) (P : list fframe) : Prop :=
  ~ is_reset (fl_snd fl) -> LS (fl_snd fl) P /\ LR (fl_rcv fl) /\ md (fl_snd fl) <= rc_maxsd (fl_rcv fl).

Lemma LS_at s P : LS s P -> forall st, sn_st s = st -> promises st s P.
Proof. intros [_ S] st <-. exact S. Qed.
Lemma LS_early s P : LS s P -> early s -> sn_shutw s = sn_shutcalled s /\ sn_inset s = true.
Proof. intros HL [E|E]; pose proof (LS_at _ _ HL _ E) as S; cbn in S; tauto. Qed.

Lemma covers_incl P P' i : incl P P' -> covers P i -> covers P' i.
Proof. intros Hi (o & l & f & d & Hin & H). exists o, l, f, d. split; [apply Hi; exact Hin|exact H]. Qed.
Lemma has_fin_incl P P' : incl P P' -> has_fin P -> has_fin P'.
Proof. intros Hi (o & l & d & Hin). exists o, l, d. apply Hi; exact Hin. Qed.
Lemma has_fin_app P fs : has_fin P -> has_fin (P ++ fs).
Proof. apply has_fin_incl, incl_appl, incl_refl. Qed.

Lemma frames_upto_app P fs n :
  (forall off len fin d, In (FrS off len fin d) fs -> off + len <= n) -> frames_upto P n -> frames_upto (P ++ fs) n.
Proof.
  intros Hfs [F1 F2]. split.
  - intros off len fin d H. apply in_app_or in H. destruct H; eauto.
  - intros i Hi. eapply covers_incl; [apply incl_appl, incl_refl|auto].
Qed.

Lemma LS_add_ctl s P fs : (forall off len fin d, ~ In (FrS off len fin d) fs) -> LS s P -> LS s (P ++ fs).
Proof.
  intros Hn [F S]. split; [apply frames_upto_app; [intros off len fin d H; destruct (Hn _ _ _ _ H)|exact F]|].
  destruct (sn_st s); try exact I; try exact S.
  - destruct S as (A & B & C). do 2 (split; [assumption|]).
    intros off len fin d H. apply in_app_or in H. destruct H as [H|H]; [exact (C _ _ _ _ H)|exact (Hn _ _ _ _ H)].
  - destruct S as (A & B). split; [apply has_fin_app; exact A|exact B].
  - destruct S as (A & B). split; [apply has_fin_app; exact A|exact B].
Qed.

Definition LS_step (s : sender) (P : list fframe) (s' : sender) (fs : list fframe) : Prop :=
  LS s' (P ++ fs) /\ md s' = md s.

Lemma LS_step_same s s' P :
  sn_st s' = sn_st s -> sn_buf s' = sn_buf s -> sn_shutw s' = sn_shutw s -> sn_shutcalled s' = sn_shutcalled s ->
  sn_fin s' = sn_fin s -> sn_inset s' = sn_inset s -> LS s P -> LS_step s P s' [].
Proof. unfold LS_step, LS, promises, md. rewrite app_nil_r. intros -> -> -> -> -> ->. auto. Qed.

Lemma LS_step_refl s P : LS s P -> LS_step s P s [].
Proof. apply LS_step_same; reflexivity. Qed.

(* Writer::cancel, Outgoing::be_stopped, Outgoing::on_reset_acked: into a reset state, or nothing happens *)
Lemma LS_step_quiet s s' P fs : s' = s /\ fs = [] \/ is_reset s' -> LS s P -> ~ is_reset s' -> LS_step s P s' fs.
Proof. intros [[-> ->]|H] HL Hn; [exact (LS_step_refl _ _ HL)|contradiction]. Qed.

Lemma LS_write s P n : sb_ok (sn_buf s) -> LS s P -> LS_step s P (fst (snd_poll_write s n)) [].
Proof.
  intros Hok HL. pose proof (LS_step_refl _ _ HL) as Refl. unfold snd_poll_write.
  destruct (sn_st s) eqn:Est; try exact Refl.
  all: destruct (sn_shutw s) eqn:Esh; [exact Refl|].
  all: destruct (negb (has_remaining (sn_buf s))); cbn [fst]; [apply LS_step_same; sn_simpl; auto|].
  all: destruct (write (sn_buf s) n) as [b|] eqn:Ew; cbn [fst]; [|exact Refl].
  (* in Ready and Sending only the sent length matters, and writing keeps it *)
  all: destruct (sb_write _ _ _ Hok Ew) as (_ & _ & W1 & W2); destruct HL as [F S]; unfold LS_step, LS, promises, md; sn_simpl;
    rewrite app_nil_r, W1; rewrite Est in S |- *; auto.
Qed.

Lemma LS_flush s P : LS s P -> LS_step s P (fst (snd_poll_flush s)) [].
Proof.
  intros HL. pose proof (LS_step_refl _ _ HL) as Refl. unfold snd_poll_flush.
  destruct (sn_st s) eqn:Est; try destruct (is_all_rcvd (sn_buf s)); cbn [fst]; try exact Refl;
    apply LS_step_same; sn_simpl; auto.
Qed.

Lemma LS_shutdown s P : LS s P -> LS_step s P (fst (snd_poll_shutdown s)) [].
Proof.
  intros HL. pose proof (LS_step_refl _ _ HL) as Refl. pose proof HL as [F S]. unfold snd_poll_shutdown.
  destruct (sn_st s) eqn:Est; cbn [fst]; try exact Refl;
    (split; [rewrite app_nil_r; split; [exact F|]|reflexivity]); sn_simpl.
  - destruct S as (_ & S). split; [reflexivity|exact S].
  - destruct S as (_ & S). split; [reflexivity|exact S].
  - exact S.
Qed.

(* what an emission, an acknowledgement and a loss report keep of the sender, beside [LS] *)
Definition keeps (s s' : sender) : Prop := wr s' = wr s /\ md s' = md s /\ (is_reset s' -> is_reset s).

Lemma keeps_refl s : keeps s s.
Proof. unfold keeps. auto. Qed.
Lemma keeps_md s s' : keeps s s' -> md s' = md s.
Proof. intros (_ & H & _). exact H. Qed.

(* closes [keeps s s'] (and the equality of [sn_inset]) once [s'] is an explicit record over the fields of [s] and
   the equalities of written length and window of a new buffer are in the context *)
Ltac keeps_leaf := unfold keeps, wr, md, is_reset; sn_simpl; repeat split; auto; intros [?H|?H]; discriminate.

Lemma pick_frames c b P pred credit b' st e fr d fin :
  sb_ok b -> frames_upto P (sent b) -> pred_pos pred -> pick_up c b pred credit = UpOk b' st e fr d ->
  frames_upto (P ++ [FrS st (e - st) fin d]) (sent b') /\ retained b' = retained b /\
  (e = written b \/ sent b = written b -> sent b' = written b') /\ written b' = written b /\ max_data b' = max_data b.
Proof.
  intros Hok [L1 L2] Hp E.
  destruct (sb_pick _ _ _ _ _ _ _ _ _ Hok Hp E) as (Hok' & Hw & Hm & X5 & Hse & Hew & _).
  destruct (sb_pick_sent _ _ _ _ _ _ _ _ _ Hok Hp E) as (X1 & X2 & X3).
  pose proof (sb_sent_le _ Hok) as Hsl.
  assert (Hst : st <= sent b /\ sent b <= sent b' /\ e <= sent b').
  { rewrite X1. destruct fr; [rewrite <- (X2 eq_refl)|specialize (X3 eq_refl)]; lia. }
  split; [split|split; [exact X5|split; [|split; [exact Hw|exact Hm]]]].
  - intros off len fin0 d0 Hin. apply in_app_or in Hin. destruct Hin as [Hin|[Hq|[]]].
    + specialize (L1 _ _ _ _ Hin). lia.
    + injection Hq as <- <- <- <-. lia.
  - intros i Hi. destruct (N.lt_ge_cases i (sent b)) as [Hlt|Hge].
    + eapply covers_incl; [apply incl_appl, incl_refl|apply L2; exact Hlt].
    + exists st, (e - st), fin, d. split; [apply in_or_app; right; now left|].
      rewrite X1 in Hi. destruct fr; [rewrite (X2 eq_refl)|]; lia.
  - rewrite Hw. rewrite X1 in *. destruct fr; [|specialize (X3 eq_refl)]; lia.
Qed.

(* the FIN goes out, with the last data or alone: Ready / Sending becomes DataSent *)
Lemma LS_fin_out s P b' f :
  sn_inset s = true -> frames_upto (P ++ [f]) (sent b') -> (exists off len d, f = FrS off len true d) ->
  sent b' = written b' -> LS (to_data_sent (snd_set_st s SSending) b') (P ++ [f]).
Proof.
  intros Hin F (off & len & d & ->) Hw. split; [exact F|]. cbn.
  split; [exists off, len, d; apply in_or_app; right; now left|]. split; [exact Hw|]. split; [intros [_ Hq]; discriminate|exact Hin].
Qed.

(* emission, acknowledgement, loss report: at every leaf of the handler the first component is [LS] of the new
   sender; the rest ([keeps], membership of the output set) is read off the record by [keeps_leaf] *)
Lemma LS_try c s P pred credit :
  sb_ok (sn_buf s) -> LS s P -> pred_pos pred ->
  LS (fst (snd_try_load c s pred credit)) (P ++ pick_frame (snd (snd_try_load c s pred credit))) /\
  keeps s (fst (snd_try_load c s pred credit)) /\ sn_inset (fst (snd_try_load c s pred credit)) = sn_inset s.
Proof.
  intros HS HL Hp. pose proof HL as [F S]. pose proof (conj HL (conj (keeps_refl s) (eq_refl (sn_inset s)))) as Same.
  assert (Fin : forall n, n = sent (sn_buf s) -> frames_upto (P ++ [FrS n (n - n) true []]) (sent (sn_buf s))).
  { intros n ->. apply frames_upto_app; [|exact F]. intros off len fin d [Hq|[]]. injection Hq as <- <- _ _. lia. }
  destruct (try_load_spec c s pred credit) as [_ _|He _|b' st e fr d He Ep eos|w f g a He Ep _ Ee _|_ _|b' st e fr d Est Ep|w f g Est Ep _];
    cbn [pick_frame pk_start pk_end pk_eos pk_data]; rewrite ?app_nil_r.
  - exact Same.
  - split; [|keeps_leaf]. split; [exact F|exact (LS_early _ _ HL He)].
  - destruct (LS_early _ _ HL He) as [Hsw Hin].
    destruct (pick_frames c _ P pred credit b' st e fr d eos HS F Hp Ep) as (F1 & F2 & F3 & W1 & W2).
    subst eos. destruct (sn_shutw s && (e =? written (sn_buf s))) eqn:Eeos; (split; [|keeps_leaf]).
    + apply andb_true_iff in Eeos. destruct Eeos as [_ Ee]. apply N.eqb_eq in Ee. apply LS_fin_out; eauto.
    + split; [exact F1|sn_simpl; split; assumption].
  - split; [|keeps_leaf].
    apply LS_fin_out; [exact (proj2 (LS_early _ _ HL He))|exact (Fin _ eq_refl)|eauto|symmetry; exact Ee].
  - exact Same.
  - destruct (LS_at _ _ HL _ Est) as (A1 & A2 & A3 & A4).
    destruct (pick_frames c _ P pred credit b' st e fr d (e =? written (sn_buf s)) HS F Hp Ep) as (F1 & F2 & F3 & W1 & W2).
    split; [|keeps_leaf]. split; [exact F1|]. unfold promises. sn_simpl. rewrite Est, F2.
    split; [apply has_fin_app; exact A1|]. split; [auto|]. split; assumption.
  - destruct (LS_at _ _ HL _ Est) as (A1 & A2 & A3 & A4).
    split; [|keeps_leaf]. split; [exact (Fin _ (eq_sym A2))|]. sn_simpl. rewrite Est.
    split; [apply has_fin_app; exact A1|]. split; [exact A2|]. split; [intros [_ Hq]; discriminate|exact A4].
Qed.

Lemma LS_acked s P off len fin : sb_ok (sn_buf s) -> LS s P ->
  LS (fst (snd_on_acked s off len fin)) P /\ keeps s (fst (snd_on_acked s off len fin)).
Proof.
  intros Hok HL. pose proof HL as [F S]. pose proof (conj HL (keeps_refl s)) as Same. unfold snd_on_acked.
  destruct (sn_st s) eqn:Est; try exact Same;
    (destruct (on_data_acked (sn_buf s) off (off + len)) as [b|] eqn:Eb; [|exact Same]);
    destruct (sb_ack _ _ _ _ Hok Eb) as (_ & Hw & X1 & Hm & _).
  - destruct (is_all_rcvd b && sn_flushw s); cbn [fst]; (split; [|keeps_leaf]);
      unfold LS, promises; sn_simpl; rewrite ?Est, X1; split; assumption.
  - destruct S as (A1 & A2 & A3 & A4).
    destruct (is_all_rcvd b && match (if fin then FinRcvd else sn_fin s) with FinRcvd => true | _ => false end) eqn:Ec;
      cbn [fst]; (split; [|keeps_leaf]);
      unfold LS, promises; sn_simpl; rewrite X1, Hw; (split; [exact F|]); (split; [exact A1|]); (split; [exact A2|]).
    + apply andb_true_iff in Ec. destruct Ec as [E1 _]. unfold is_all_rcvd in E1. apply N.eqb_eq in E1. exact E1.
    + split; [|exact A4]. intros [Q1 Q2]. apply andb_false_iff in Ec. destruct Ec as [Ec|Ec].
      * unfold is_all_rcvd in Ec. apply N.eqb_neq in Ec. contradiction.
      * rewrite Q2 in Ec. discriminate.
Qed.

Lemma LS_lost s P off len fin : sb_ok (sn_buf s) -> LS s P ->
  LS (fst (snd_may_loss s off len fin)) P /\
  keeps s (fst (snd_may_loss s off len fin)) /\ sn_inset (fst (snd_may_loss s off len fin)) = sn_inset s.
Proof.
  intros Hok HL. pose proof HL as [F S]. pose proof (conj HL (conj (keeps_refl s) (eq_refl (sn_inset s)))) as Same. unfold snd_may_loss.
  destruct (sn_st s) eqn:Est; try exact Same.
  - destruct (may_loss_data (sn_buf s) off (off + len)) as [b|] eqn:Eb; [|exact Same].
    destruct (sb_loss _ _ _ _ Hok Eb) as (_ & Hw & X1 & Hm & _).
    cbn [fst]. split; [|keeps_leaf]. unfold LS, promises; sn_simpl; rewrite Est, X1. split; assumption.
  - destruct S as (A1 & A2 & A3 & A4).
    assert (Hf : (if fin && negb (match sn_fin s with FinRcvd => true | _ => false end) then FinLost else sn_fin s) = FinRcvd ->
                 sn_fin s = FinRcvd) by (destruct fin; destruct (sn_fin s); cbn; congruence).
    destruct (may_loss_data (sn_buf s) off (off + len)) as [b|] eqn:Eb; cbn [fst].
    + destruct (sb_loss _ _ _ _ Hok Eb) as (_ & Hw & X1 & Hm & X3).
      split; [|keeps_leaf]. unfold LS, promises; sn_simpl; rewrite X1, Hw, X3.
      split; [exact F|]. split; [exact A1|]. split; [exact A2|]. split; [|exact A4]. intros [Q1 Q2]. auto.
    + split; [|keeps_leaf]. unfold LS, promises; sn_simpl; rewrite Est.
      split; [exact F|]. split; [exact A1|]. split; [exact A2|]. split; [|exact A4]. intros [Q1 Q2]. auto.
Qed.

Lemma LR_st r : LR r <-> match rc_st r with
                         | RRecv => rc_inset r = true
                         | RSizeKnown f => nread (rc_buf r) + available (rc_buf r) <> f /\ rc_inset r = true
                         | _ => True
                         end.
Proof.
  unfold LR. destruct (rc_st r); split; try (intros _; exact I);
    try (intros _; split; [intros f Hq; discriminate|intros [Hq|[f Hq]]; discriminate]).
  - intros [_ K2]. apply K2. now left.
  - intro H. split; [intros f Hq; discriminate|auto].
  - intros [K1 K2]. split; [apply K1; reflexivity|apply K2; right; eauto].
  - intros [H1 H2]. split; [intros f Hq; injection Hq as <-; exact H1|auto].
Qed.

Lemma LR_recv_data r off d fin r' fresh :
  rc_recv_data r off d fin = inl (r', fresh) -> (LR r -> LR r') /\ rc_maxsd r' = rc_maxsd r.
Proof.
  intros E. unfold rc_recv_data in E.
  destruct (rc_st r) eqn:Est; try (injection E as <- _; auto).
  - destruct fin.
    + cbn [rc_wake] in E. destruct (rc_maxsd r <? off + lenN d); [discriminate|].
      destruct (off + lenN d <? largest (rc_buf r)); [discriminate|].
      destruct (recv (rc_buf r) off d) as [b' fr].
      destruct (all_rcvd b' (off + lenN d)) eqn:Ea; injection E as <- _; (split; [intros _; apply LR_st; rc_simpl|reflexivity]).
      * exact I.
      * split; [apply N.eqb_neq; exact Ea|reflexivity].
    + destruct (rc_maxsd r <? off + lenN d); [discriminate|].
      destruct (recv (rc_buf r) off d) as [b' fr].
      destruct (is_readable b'); cbn [rc_wake] in E; injection E as <- _; (split; [intros _; apply LR_st|]); reflexivity.
  - destruct (final <? off + lenN d); [discriminate|].
    destruct (fin && negb (off + lenN d =? final)); [discriminate|].
    destruct (recv (rc_buf r) off d) as [b' fr].
    destruct (is_readable b'); cbn [rc_wake] in E;
      (destruct (all_rcvd b' final) eqn:Ea; injection E as <- _; (split; [intros _; apply LR_st; rc_simpl|reflexivity]);
       [exact I|split; [apply N.eqb_neq; exact Ea|reflexivity]]).
Qed.

Lemma LR_read c r room r' z out :
  RB.Inv c (rc_buf r) -> rc_poll_read r room = (r', z, out) -> (LR r -> LR r') /\ rc_maxsd r <= rc_maxsd r'.
Proof.
  intros R1 E. rewrite !LR_st. unfold rc_poll_read in E.
  destruct (rc_st r) eqn:Est.
  - destruct (is_readable (rc_buf r)); [destruct (try_read (rc_buf r) room) as [b' o]|]; injection E as <- _ _; rc_simpl;
      (split; [auto|]); [|lia].
    destruct ((rc_maxsd r <? nread b' + 1000000) && (rc_maxsd r <? N.min (nread b' + 2000000) Flow.VARINT_MAX)) eqn:Ec; [|lia].
    apply andb_true_iff in Ec. destruct Ec as [_ Ec]. apply N.ltb_lt in Ec. lia.
  - destruct (is_readable (rc_buf r)); [destruct (try_read (rc_buf r) room) as [b' o] eqn:Et|]; injection E as <- _ _; rc_simpl;
      (split; [|lia]); [|auto].
    (* a read keeps the frontier *)
    destruct (RB.try_read_spec _ _ _ _ _ R1 Et) as (_ & _ & _ & _ & _ & T). rewrite T. auto.
  - destruct (try_read (rc_buf r) room) as [b' o]. injection E as <- _ _. rc_simpl. split; [|lia].
    intros _. destruct (segs b'); exact I.
  - injection E as <- _ _. rc_simpl. split; [auto|lia].
  - injection E as <- _ _. rc_simpl. split; [auto|lia].
  - injection E as <- _ _. rewrite Est. split; [auto|lia].
Qed.

Lemma LR_stop r r' b : rc_stop r = (r', b) -> (LR r -> LR r') /\ rc_maxsd r' = rc_maxsd r.
Proof.
  intros E. rewrite !LR_st. unfold rc_stop in E.
  destruct (rc_st r) eqn:Est; try (injection E as <- _; rewrite Est; auto);
    (destruct (rc_stopped r); injection E as <- _; rc_simpl; rewrite ?Est; auto).
Qed.

Lemma LR_reset_unused r final r' fresh : LR r -> rc_recv_reset r final = inl (r', fresh) -> rc_inset r = false ->
  LR r' /\ rc_maxsd r' = rc_maxsd r.
Proof.
  (* an open recver is in the input set *)
  intros HL E Hi. unfold rc_recv_reset in E.
  destruct (rc_st r) eqn:Est; try (injection E as <- _; auto);
    rewrite (proj2 HL) in Hi by (rewrite Est; eauto); discriminate Hi.
Qed.

Lemma snd_op_LS c s P o s' fs :
  sb_ok (sn_buf s) -> LS s P -> justified P o -> snd_op c s o = Some (s', fs) -> ~ is_reset s' -> LS_step s P s' fs.
Proof.
  intros Hok HL Hj E.
  destruct o as [n| | |err|room|err|pred credit|off d fin|final|err|off len fin| |off len fin]; cbn [snd_op] in E; try discriminate E; try (destruct (sn_inset s); [|discriminate E]);
    injection E as <- <-; intro Hn.
  - exact (LS_write s P n Hok HL).
  - exact (LS_flush s P HL).
  - exact (LS_shutdown s P HL).
  - apply LS_step_quiet; [|exact HL|exact Hn]. unfold snd_cancel, is_reset. destruct (sn_st s); cbn; auto.
  - destruct (LS_try c s P pred credit Hok HL Hj) as (L & K & _). exact (conj L (keeps_md _ _ K)).
  - apply LS_step_quiet; [|exact HL|exact Hn]. unfold snd_be_stopped, is_reset. destruct (sn_st s); cbn; auto.
  - destruct (LS_acked s P off len fin Hok HL) as (L & K). rewrite <- (app_nil_r P) in L. exact (conj L (keeps_md _ _ K)).
  - apply LS_step_quiet; [|exact HL|exact Hn]. unfold snd_on_reset_acked, is_reset. destruct (sn_st s); cbn; auto.
  - destruct (LS_lost s P off len fin Hok HL) as (L & K & _). rewrite <- (app_nil_r P) in L. exact (conj L (keeps_md _ _ K)).
Qed.

Lemma rcv_op_LR c r o r' fs :
  RB.Inv c (rc_buf r) -> (forall final, o <> FDeliverR final) -> rcv_op r o = Some (r', fs) ->
  (LR r -> LR r') /\ rc_maxsd r <= rc_maxsd r' /\ forall off len fin d, ~ In (FrS off len fin d) fs.
Proof.
  intros R1 Hn E. assert (Nil : forall off len fin d, ~ In (FrS off len fin d) []) by (intros off len fin d []).
  destruct o as [n| | |err|room|err|pred credit|off d fin|final|err|off len fin| |off len fin]; cbn [rcv_op] in E; try discriminate E; try (destruct (rc_inset r); [|discriminate E]).
  - destruct (rc_poll_read r room) as [[r1 z] out] eqn:Er. injection E as <- <-.
    destruct (LR_read _ _ _ _ _ _ R1 Er) as [A B]. auto.
  - destruct (rc_stop r) as [r1 b] eqn:Er. injection E as <- <-.
    destruct (LR_stop _ _ _ Er) as [A B]. split; [auto|]. split; [lia|].
    intros off len fin d H. destruct b; [destruct H as [H|[]]; discriminate|destruct H].
  - destruct (rc_recv_data r off d fin) as [[r1 fresh]|e] eqn:Er; [|discriminate E]. injection E as <- <-.
    destruct (LR_recv_data _ _ _ _ _ _ Er) as [A B]. split; [auto|]. split; [lia|exact Nil].
  - destruct (Hn final eq_refl).
Qed.

Lemma flow_step_LI c fl P o fl' new out :
  FI c fl P -> LI fl P -> justified P o -> flow_step c fl o = (fl', new, out) -> LI fl' (P ++ new).
Proof.
  intros HFI HLI Hj E Hn'. pose proof HFI as [HS (R1 & _)].
  pose proof (flow_step_split c fl o) as E1. rewrite E in E1. cbn [fst] in E1.
  destruct (snd_op c (fl_snd fl) o) as [[s' fs]|] eqn:Es.
  - injection E1 as -> ->. cbn [fl_snd fl_rcv] in *.
    destruct (snd_op_step _ _ _ _ _ _ HS Hj Es) as [_ (M1 & _)].
    assert (Hn : ~ is_reset (fl_snd fl)) by (rewrite is_reset_rank in *; lia).
    destruct (HLI Hn) as (HL & HR & HM). destruct (snd_op_LS _ _ _ _ _ _ (proj1 HS) HL Hj Es Hn') as [HL' Hm].
    rewrite Hm. auto.
  - destruct (rcv_op (fl_rcv fl) o) as [[r' fs]|] eqn:Er; injection E1 as -> ->; [|rewrite app_nil_r; exact (HLI Hn')].
    cbn [fl_snd fl_rcv] in *. destruct (HLI Hn') as (HL & HR & HM).
    (* a RESET_STREAM frame is delivered only to a flow whose sender is reset *)
    assert (Hnr : forall final, o <> FDeliverR final).
    { intros final ->. destruct Hj as [err Hin]. exact (Hn' (proj2 (proj1 (proj2 HS) _ Hin))). }
    destruct (rcv_op_LR _ _ _ _ _ R1 Hnr Er) as (A & B & C).
    split; [apply LS_add_ctl; assumption|]. split; [auto|lia].
Qed.

Lemma LI_init w : LI (new_flow w) [].
Proof.
  intros _. split; [|split].
  - assert (Hs : sent (with_capacity w) = 0) by reflexivity.
    split; [split; [intros o l f d []|intros i Hi; cbn [new_flow fl_snd new_sender sn_buf] in Hi; rewrite Hs in Hi; lia]|].
    cbn. split; [reflexivity|]. split; [reflexivity|intros o l f d []].
  - split; [intros f H; discriminate|reflexivity].
  - cbn. lia.
Qed.

Lemma reach_LI c fl P : flow_reach c fl P -> LI fl P.
Proof.
  induction 1; [apply LI_init|]. eapply flow_step_LI; eauto. apply reach_FI; assumption.
Qed.

Definition good_pred (pred : N -> option N) : Prop := forall o, exists a, pred o = Some a /\ 1 <= a /\ a < two62.

Lemma good_pred_pos pred : good_pred pred -> pred_pos pred.
Proof. intros H o a E. destruct (H o) as (a' & E' & H1 & _). congruence. Qed.

Definition all_FR (b : sndbuf) : Prop := forall i, i < size (st b) -> colr (st b) i = Flighting \/ colr (st b) i = Recved.

(* with room in the packet and connection credit, a pick fails only when nothing is Pending or Lost *)
Lemma pick_err c b pred credit :
  sb_ok b -> good_pred pred -> credit <> 0 ->
  match pick_up c b pred credit with
  | UpOk _ _ _ _ _ => True
  | UpErr _ _ _ => all_FR b
  | UpPV => False
  end.
Proof.
  intros [HI _] Hg Hc.
  assert (Hg' : forall o, exists a, pred o = Some a /\ a < two62) by (intro o; destruct (Hg o) as (a & E & _ & H); eauto).
  pose proof (SB.pick_up_total c b pred credit HI Hg') as T. destruct (pick_up c b pred credit); [exact I| |exact T].
  intros i _. destruct (T i) as [Hq|[Hq|[_ Hq]]]; [left; exact Hq|right; exact Hq|contradiction].
Qed.

Lemma pick_ok_not_FR c b pred credit b' s e fr d :
  sb_ok b -> pred_pos pred -> pick_up c b pred credit = UpOk b' s e fr d -> ~ all_FR b.
Proof.
  intros [HI HT] Hp Ep Hfr. destruct (SB.pick_facts _ _ _ _ _ _ _ _ _ HI HT Hp Ep) as (Hse & _ & _ & (col & Hcol & _ & Hc) & _).
  destruct (proj1 (SB.colour_at_some _ _ _) (Hc s ltac:(lia))) as [Hi Hq].
  destruct (Hfr s Hi) as [Hf|Hf]; rewrite Hf in Hq; destruct Hcol as [->| ->]; discriminate.
Qed.

Lemma all_FR_sent b : sb_ok b -> all_FR b -> sent b = size (st b).
Proof.
  intros [HI _] H. apply (SB.is_sent_unique (st b)); [exact (SB.sent_of_spec _ (SB.inv_wf _ HI))|].
  split; [apply N.le_refl|]. split; [intros i Hi; lia|]. intros i Hi Hp. destruct (H i Hi); congruence.
Qed.

Lemma sb_size b : sb_ok b -> written b <= max_data b -> size (st b) = written b.
Proof. intros [HI _] Hw. rewrite (SB.inv_size _ HI). apply N.min_l. exact Hw. Qed.

(* the sender has nothing to emit; the first clause is [all_FR (sn_buf s)] *)
Definition snd_drained (s : sender) : Prop :=
  (forall i, i < size (st (sn_buf s)) -> colr (st (sn_buf s)) i = Flighting \/ colr (st (sn_buf s)) i = Recved) /\
  match sn_st s with
  | SSending => sn_shutcalled s = false
  | SDataSent => sn_fin s <> FinLost
  | SDataRcvd => True
  | _ => False
  end.

Definition round_ok (c : N -> Z) (fl : flow) (P : list fframe) : Prop :=
  flow_reach c fl P /\ ~ is_reset (fl_snd fl) /\ wr (fl_snd fl) <= md (fl_snd fl).

Lemma round_inv c fl P : round_ok c fl P ->
  FI c fl P /\ LS (fl_snd fl) P /\ LR (fl_rcv fl) /\ md (fl_snd fl) <= rc_maxsd (fl_rcv fl).
Proof. intros (Hre & Hn & _). split; [exact (reach_FI _ _ _ Hre)|exact (reach_LI _ _ _ Hre Hn)]. Qed.

Lemma round_keeps c fl P fl' P' :
  round_ok c fl P -> flow_reach c fl' P' -> keeps (fl_snd fl) (fl_snd fl') -> round_ok c fl' P'.
Proof. intros (_ & Hnr & Hw) Hre (K1 & K2 & K3). split; [exact Hre|]. split; [auto|]. rewrite K1, K2. exact Hw. Qed.

Lemma round_size c fl P : round_ok c fl P -> size (st (sn_buf (fl_snd fl))) = wr (fl_snd fl).
Proof. intros Hr. destruct (round_inv _ _ _ Hr) as [[(Hok & _) _] _]. exact (sb_size _ Hok (proj2 (proj2 Hr))). Qed.

Lemma datarcvd_acked s P : sb_ok (sn_buf s) -> LS s P -> sn_st s = SDataRcvd ->
  forall i, i < size (st (sn_buf s)) -> colr (st (sn_buf s)) i = Recved.
Proof.
  intros [HI (_ & T2 & _)] HL Est i Hi. destruct (LS_at _ _ HL _ Est) as (_ & _ & B2).
  pose proof (SB.inv_size _ HI) as Hsz. apply T2. unfold written in Hsz. lia.
Qed.

(* past DataSent and not reset is DataRcvd *)
Lemma beyond_drained s P :
  sb_ok (sn_buf s) -> LS s P -> ~ is_reset s -> ~ early s -> sn_st s <> SDataSent -> snd_drained s.
Proof.
  intros Hok HL Hnr He Hds. unfold snd_drained.
  destruct (sn_st s) eqn:Est;
    [destruct (He (or_introl Est))|destruct (He (or_intror Est))|destruct (Hds eq_refl)|
    |destruct (Hnr (or_introl Est))|destruct (Hnr (or_intror Est))].
  split; [|exact I]. intros i Hi. right. exact (datarcvd_acked s P Hok HL Est i Hi).
Qed.

Lemma not_inset_drained c fl P : round_ok c fl P -> sn_inset (fl_snd fl) = false -> snd_drained (fl_snd fl).
Proof.
  intros Hr Hin. pose proof Hr as (_ & Hnr & _). destruct (round_inv _ _ _ Hr) as [[HS _] (HL & _)].
  apply (beyond_drained _ P (proj1 HS) HL Hnr).
  - intro He. rewrite (proj2 (LS_early _ _ HL He)) in Hin. discriminate Hin.
  - intro Est. destruct (LS_at _ _ HL _ Est) as (_ & _ & _ & Hi). congruence.
Qed.

Lemma try_none_drained c s P pred credit :
  sb_ok (sn_buf s) -> LS s P -> ~ is_reset s -> wr s <= md s -> good_pred pred -> credit <> 0 ->
  snd (snd_try_load c s pred credit) = None -> snd_drained (fst (snd_try_load c s pred credit)).
Proof.
  intros Hok HL Hnr Hw Hg Hc.
  pose proof (pick_err c _ _ _ Hok Hg Hc) as Hpe. unfold snd_drained.
  destruct (try_load_spec c s pred credit) as [He Hds|He Hno| | |Est Hno| | ]; try discriminate; intros _.
  - exact (beyond_drained s P Hok HL Hnr He Hds).
  - destruct (pick_up c (sn_buf s) pred credit); [destruct Hno| |destruct Hpe]. sn_simpl. split; [exact Hpe|].
    (* shutdown was not called: else the FIN-only frame would have gone out *)
    rewrite <- (proj1 (LS_early _ _ HL He)). destruct (sn_shutw s); [|reflexivity]. exfalso.
    destruct (Hg (sent (sn_buf s))) as (a & Ea & _). rewrite Hno in Ea; [discriminate Ea|].
    apply N.eqb_eq. rewrite (all_FR_sent _ Hok Hpe). symmetry. exact (sb_size _ Hok Hw).
  - rewrite Est. destruct (pick_up c (sn_buf s) pred credit); [destruct Hno| |destruct Hpe]. split; assumption.
Qed.

Lemma try_on_drained c s P pred credit :
  sb_ok (sn_buf s) -> LS s P -> pred_pos pred -> snd_drained s ->
  snd (snd_try_load c s pred credit) = None /\ snd_drained (fst (snd_try_load c s pred credit)).
Proof.
  intros Hok HL Hp Hd. pose proof Hd as [Hfr Hst].
  pose proof (fun b' st0 e fr d Ep => pick_ok_not_FR c _ pred credit b' st0 e fr d Hok Hp Ep Hfr) as NoOk.
  destruct (try_load_spec c s pred credit) as [_ _|He _|b' st e fr d He Ep eos|w f g a He _ Esh _ _|_ _|b' st e fr d Est Ep|w f g Est _ Ef];
    try (split; [reflexivity|exact Hd]); try (destruct (NoOk _ _ _ _ _ Ep)).
  - split; [reflexivity|]. split; [exact Hfr|]. sn_simpl. destruct He as [E|E]; rewrite E in Hst; [destruct Hst|exact Hst].
  - rewrite (proj1 (LS_early _ _ HL He)) in Esh. destruct He as [E|E]; rewrite E in Hst; [destruct Hst|congruence].
  - rewrite Est in Hst. destruct (Hst Ef).
Qed.

Lemma try_step c fl P pred credit fl' new out :
  round_ok c fl P -> pred_pos pred -> flow_step c fl (FTry pred credit) = (fl', new, out) ->
  round_ok c fl' (P ++ new) /\ new = pick_frame (fo_pick out) /\
  sn_inset (fl_snd fl') = sn_inset (fl_snd fl) /\
  (snd_drained (fl_snd fl) -> fo_pick out = None /\ snd_drained (fl_snd fl')) /\
  (good_pred pred -> credit <> 0 -> fo_pick out = None -> snd_drained (fl_snd fl')).
Proof.
  intros Hr Hp Es. pose proof Hr as (Hre & Hnr & Hw). destruct (round_inv _ _ _ Hr) as [[HS _] (HL & _)].
  pose proof (fr_step _ _ _ (FTry pred credit) _ _ _ Hre Hp Es) as Hre1.
  cbn [flow_step] in Es. rewrite (surjective_pairing (snd_try_load c (fl_snd fl) pred credit)) in Es.
  injection Es as <- <- <-. cbn [fl_snd fo_pick] in *.
  destruct (LS_try c _ P pred credit (proj1 HS) HL Hp) as (_ & K & Hi).
  split; [exact (round_keeps _ _ _ _ _ Hr Hre1 K)|]. split; [reflexivity|]. split; [exact Hi|].
  split; [exact (try_on_drained _ _ _ _ _ (proj1 HS) HL Hp)|].
  intros Hg Hc. exact (try_none_drained _ _ _ _ _ (proj1 HS) HL Hnr Hw Hg Hc).
Qed.

Fixpoint run (c : N -> Z) (fl : flow) (P : list fframe) (ops : list fop) : flow * list fframe :=
  match ops with
  | [] => (fl, P)
  | o :: rest => let '(fl', new, _) := flow_step c fl o in run c fl' (P ++ new) rest
  end.

Lemma run_app c : forall ops1 fl P ops2,
  run c fl P (ops1 ++ ops2) = let '(fl1, P1) := run c fl P ops1 in run c fl1 P1 ops2.
Proof.
  induction ops1 as [|o r IH]; intros fl P ops2; cbn [run app]; [reflexivity|].
  destruct (flow_step c fl o) as [[fl' new] out]. apply IH.
Qed.

Definition deliver_op (f : fframe) : list fop := match f with FrS off _ fin d => [FDeliverS off d fin] | _ => [] end.
Definition ack_op (f : fframe) : list fop := match f with FrS off len fin _ => [FAck off len fin] | _ => [] end.
Definition lose_op (f : fframe) : list fop := match f with FrS off len fin _ => [FLose off len fin] | _ => [] end.

Definition done_r (r : recver) : Prop := (exists f, rc_st r = RDataRcvd f) \/ rc_st r = RDataRead.

Lemma no_reset_rcv c fl P : FI c fl P -> ~ is_reset (fl_snd fl) -> open_r (fl_rcv fl) \/ done_r (fl_rcv fl).
Proof.
  intros [(_ & HF & _) (_ & _ & _ & _ & _ & R6)] Hn. unfold open_r, done_r.
  destruct (rc_st (fl_rcv fl)) eqn:E; eauto.
  - exfalso. destruct (R6 (or_introl eq_refl)) as (e & f & Hin). destruct (HF _ Hin) as [_ Hr]. exact (Hn Hr).
  - exfalso. destruct (R6 (or_intror eq_refl)) as (e & f & Hin). destruct (HF _ Hin) as [_ Hr]. exact (Hn Hr).
Qed.

Lemma done_covered c r W (pf sc : Prop) P : RI c r W pf sc P -> done_r r -> forall i, i < W -> RB.covered (rc_buf r) i.
Proof.
  intros (R1 & _ & _ & R4 & _) Hd i Hi. destruct (N.lt_ge_cases i (nread (rc_buf r))) as [Hlt|Hge]; [left; exact Hlt|].
  apply (RB.available_spec c _ R1). destruct Hd as [[f Hd]|Hd]; rewrite Hd in R4; lia.
Qed.

Lemma rcv_complete c r W (pf sc : Prop) P :
  RI c r W pf sc P -> (forall i, i < W -> RB.covered (rc_buf r) i) -> nread (rc_buf r) + available (rc_buf r) = W.
Proof.
  intros (R1 & R2 & _) Hc. pose proof R1 as (_ & I2 & _).
  apply (RB.frontier_unique c _ _ R1); [lia|intros i Hi; apply Hc; lia|].
  intro Hq. pose proof (RB.Inv_covered_lt _ _ _ R1 Hq). lia.
Qed.

Lemma recv_data_open c r W (pf sc : Prop) P off len fin :
  RI c r W pf sc P -> off + len <= W -> off + len <= rc_maxsd r -> (fin = true -> off + len = W) -> open_r r ->
  exists r' fresh, rc_recv_data r off (slice c off len) fin = inl (r', fresh) /\
    (forall i, RB.covered (rc_buf r) i \/ off <= i < off + len -> RB.covered (rc_buf r') i) /\
    (rc_st r <> RRecv \/ fin = true -> rc_st r' <> RRecv).
Proof.
  intros (R1 & R2 & _ & R4 & _) Hle Hmd Hfin Ho. unfold rc_recv_data. rewrite lenN_slice.
  destruct (recv (rc_buf r) off (slice c off len)) as [b' fr] eqn:Er.
  destruct (RB.recv_spec _ _ _ _ _ _ R1 Er) as (_ & _ & Q3 & _).
  assert (Q : forall i, RB.covered (rc_buf r) i \/ off <= i < off + len -> RB.covered b' i) by (intro i; apply Q3).
  assert (E1 : rc_maxsd r <? off + len = false) by (apply N.ltb_ge; exact Hmd).
  destruct Ho as [Ho|[f Ho]]; rewrite Ho in *.
  - destruct fin; cbn [rc_wake]; rewrite E1.
    + assert (E2 : off + len <? largest (rc_buf r) = false) by (apply N.ltb_ge; rewrite (Hfin eq_refl); exact R2).
      rewrite E2. destruct (all_rcvd b' (off + len)); eexists _, _; (split; [reflexivity|]); rc_simpl;
        (split; [exact Q|intros _; discriminate]).
    + destruct (is_readable b'); cbn [rc_wake]; eexists _, _; (split; [reflexivity|]); rc_simpl;
        (split; [exact Q|intros [Hq|Hq]; [destruct (Hq eq_refl)|discriminate Hq]]).
  - destruct R4 as (-> & _).
    assert (E2 : W <? off + len = false) by (apply N.ltb_ge; exact Hle).
    assert (E3 : fin && negb (off + len =? W) = false)
      by (destruct fin; [rewrite (Hfin eq_refl), N.eqb_refl|]; reflexivity).
    rewrite E2, E3. destruct (is_readable b'); cbn [rc_wake]; destruct (all_rcvd b' W); eexists _, _;
      (split; [reflexivity|]); rc_simpl; (split; [exact Q|intros _; discriminate]).
Qed.

(* a delivery adds the frame's range to what the recver holds, and its FIN to what it knows; to a complete
   recver, which holds and knows everything, it does nothing *)
Lemma deliver_step c fl P off len fin d fl' new out :
  round_ok c fl P -> In (FrS off len fin d) P ->
  flow_step c fl (FDeliverS off d fin) = (fl', new, out) ->
  new = [] /\ fo_err out = false /\ fl_snd fl' = fl_snd fl /\
  (forall i, RB.covered (rc_buf (fl_rcv fl)) i \/ off <= i < off + len -> RB.covered (rc_buf (fl_rcv fl')) i) /\
  (rc_st (fl_rcv fl) <> RRecv \/ fin = true -> rc_st (fl_rcv fl') <> RRecv).
Proof.
  intros Hr Hin E. pose proof Hr as (_ & Hnr & Hw). destruct (round_inv _ _ _ Hr) as [HFI (_ & [_ K2] & HM)].
  pose proof HFI as [(_ & HF & _) HR]. destruct (HF _ Hin) as (-> & F2 & F3 & _).
  unfold flow_step in E.
  destruct (no_reset_rcv _ _ _ HFI Hnr) as [Ho|Hd].
  - assert (Hmd : off + len <= rc_maxsd (fl_rcv fl)) by lia.
    destruct (recv_data_open _ _ _ _ _ _ off len fin HR F2 Hmd (fun H => proj1 (F3 H)) Ho) as (r' & fresh & Er & C).
    rewrite (K2 Ho), Er in E. injection E as <- <- <-. do 3 (split; [reflexivity|]). exact C.
  - assert (Er : rc_recv_data (fl_rcv fl) off (slice c off len) fin = inl (fl_rcv fl, 0))
      by (unfold rc_recv_data; destruct Hd as [[f ->]| ->]; reflexivity).
    rewrite Er in E.
    assert (Hq : fl' = fl /\ new = [] /\ fo_err out = false)
      by (destruct (rc_inset (fl_rcv fl)); injection E as <- <- <-; destruct fl; auto).
    destruct Hq as (-> & -> & ->). do 3 (split; [reflexivity|]).
    split; [intros i [Hi|Hi]; [exact Hi|apply (done_covered _ _ _ _ _ _ HR Hd); lia]|].
    intros _. destruct Hd as [[f ->]| ->]; discriminate.
Qed.

(* the three kinds of feedback the channel gives for a STREAM frame; [deliver_op], [ack_op], [lose_op] are [fb_ops] of each *)
Inductive fkind := KDeliver | KAck | KLose.

Definition fb_op (k : fkind) (off len : N) (fin : bool) (d : list Z) : fop :=
  match k with KDeliver => FDeliverS off d fin | KAck => FAck off len fin | KLose => FLose off len fin end.
Definition fb_ops (k : fkind) (f : fframe) : list fop :=
  match f with FrS off len fin d => [fb_op k off len fin d] | _ => [] end.

Lemma fb_justified P k off len fin d : In (FrS off len fin d) P -> justified P (fb_op k off len fin d).
Proof. destruct k; cbn [fb_op justified]; eauto. Qed.

Lemma feedback_step c fl P k off len fin d fl' new out :
  round_ok c fl P -> In (FrS off len fin d) P -> flow_step c fl (fb_op k off len fin d) = (fl', new, out) ->
  new = [] /\ fo_err out = false /\ round_ok c fl' P /\ wr (fl_snd fl') = wr (fl_snd fl) /\
  (k <> KAck -> sn_inset (fl_snd fl') = sn_inset (fl_snd fl)).
Proof.
  intros Hr Hin Es. pose proof Hr as (Hre & _). destruct (round_inv _ _ _ Hr) as [[(Hok & _) _] (HL & _)].
  pose proof (fr_step _ _ _ _ _ _ _ Hre (fb_justified _ k _ _ _ _ Hin) Es) as Hre1.
  assert (K : new = [] /\ fo_err out = false /\ keeps (fl_snd fl) (fl_snd fl') /\
              (k <> KAck -> sn_inset (fl_snd fl') = sn_inset (fl_snd fl))).
  { destruct k; cbn [fb_op] in Es.
    - destruct (deliver_step _ _ _ _ _ _ _ _ _ _ Hr Hin Es) as (D1 & D2 & D3 & _).
      rewrite D3. split; [exact D1|]. split; [exact D2|]. split; [apply keeps_refl|reflexivity].
    - cbn [flow_step] in Es. destruct (sn_inset (fl_snd fl)) eqn:Ein.
      + rewrite (surjective_pairing (snd_on_acked _ _ _ _)) in Es. injection Es as <- <- <-.
        do 2 (split; [reflexivity|]). split; [exact (proj2 (LS_acked _ _ _ _ _ Hok HL))|].
        intro Hn. destruct (Hn eq_refl).
      + injection Es as <- <- <-. do 2 (split; [reflexivity|]). split; [apply keeps_refl|intros _; exact Ein].
    - cbn [flow_step] in Es. destruct (sn_inset (fl_snd fl)) eqn:Ein.
      + rewrite (surjective_pairing (snd_may_loss _ _ _ _)) in Es. injection Es as <- <- <-.
        destruct (LS_lost _ _ off len fin Hok HL) as (_ & K & Hi). cbn [fl_snd]. rewrite Hi, Ein. auto.
      + injection Es as <- <- <-. do 2 (split; [reflexivity|]). split; [apply keeps_refl|intros _; exact Ein]. }
  destruct K as (-> & K1 & K2 & K3). rewrite app_nil_r in Hre1.
  split; [reflexivity|]. split; [exact K1|]. split; [exact (round_keeps _ _ _ _ _ Hr Hre1 K2)|]. split; [exact (proj1 K2)|exact K3].
Qed.

(* A phase of the round gives one kind of feedback for every frame of a list.  [K fl i]: the component that takes
   the feedback knows byte [i]; [F fl]: it knows the FIN.  A step adds the range and the FIN flag of its frame to what
   is known, so the phase adds what the list covers.  [Keep] is what each step keeps. *)
Section Phase.
  Variables (c : N -> Z) (P : list fframe) (k : fkind).
  Variables (Keep : flow -> Prop) (K : flow -> N -> Prop) (F : flow -> Prop).
  Hypothesis step : forall off len fin d fl fl' out,
    In (FrS off len fin d) P -> round_ok c fl P -> Keep fl -> flow_step c fl (fb_op k off len fin d) = (fl', [], out) ->
    Keep fl' /\ (forall i, i < wr (fl_snd fl) -> K fl i \/ off <= i < off + len -> K fl' i) /\ (F fl \/ fin = true -> F fl').

  Lemma run_phase : forall L fl, incl L P -> round_ok c fl P -> Keep fl ->
    exists fl', run c fl P (flat_map (fb_ops k) L) = (fl', P) /\ round_ok c fl' P /\ wr (fl_snd fl') = wr (fl_snd fl) /\ Keep fl' /\
      (forall i, i < wr (fl_snd fl) -> K fl i \/ covers L i -> K fl' i) /\ (F fl \/ has_fin L -> F fl').
  Proof.
    induction L as [|x L IH]; intros fl Hin Hr HI.
    - exists fl. cbn [flat_map run]. do 4 (split; [auto|]).
      split; [intros i _ [H|(o & l & f & d & [] & _)]|intros [H|(o & l & d & [])]]; exact H.
    - assert (HinL : incl L P) by (intros y Hy; apply Hin; now right).
      cbn [flat_map]. destruct x as [off len fin d|err final|err]; cbn [fb_ops app].
      2,3: destruct (IH fl HinL Hr HI) as (fl' & E1 & E2 & E3 & E4 & E5 & E6); exists fl'; do 4 (split; [assumption|]); split;
        [intros i Hi [H|(o & l & f & d & [Hq|Hq] & Hio)]; [auto|discriminate Hq|apply E5; [exact Hi|right; exists o, l, f, d; auto]]
        |intros [H|(o & l & d & [Hq|Hq])]; [auto|discriminate Hq|apply E6; right; exists o, l, d; exact Hq]].
      assert (HxP : In (FrS off len fin d) P) by (apply Hin; now left).
      cbn [run]. destruct (flow_step c fl (fb_op k off len fin d)) as [[fl1 new] out] eqn:Es.
      destruct (feedback_step _ _ _ _ _ _ _ _ _ _ _ Hr HxP Es) as (-> & _ & Hr1 & Hw1 & _).
      destruct (step _ _ _ _ _ _ _ HxP Hr HI Es) as (HI1 & HK1 & HF1). rewrite app_nil_r.
      destruct (IH fl1 HinL Hr1 HI1) as (fl' & E1 & E2 & E3 & E4 & E5 & E6). rewrite Hw1 in E5. exists fl'.
      split; [exact E1|]. split; [exact E2|]. split; [congruence|]. split; [exact E4|]. split.
      + intros i Hi [H|(o & l & f & d' & [Hq|Hq] & Hio)]; (apply E5; [exact Hi|]).
        * left. apply HK1; auto.
        * injection Hq as <- <- <- <-. left. apply HK1; auto.
        * right. exists o, l, f, d'. auto.
      + intros [H|(o & l & d' & [Hq|Hq])]; apply E6.
        * left. apply HF1. now left.
        * injection Hq as _ _ -> _. left. apply HF1. now right.
        * right. exists o, l, d'. exact Hq.
  Qed.
End Phase.

Lemma lose_phase c fl P : round_ok c fl P ->
  exists fl', run c fl P (flat_map lose_op P) = (fl', P) /\ round_ok c fl' P.
Proof.
  intro Hr.
  destruct (run_phase c P KLose (fun _ => True) (fun _ _ => True) (fun _ => True)) with (L := P) (fl := fl) as (fl' & E1 & E2 & _);
    eauto using incl_refl.
Qed.

Lemma deliver_phase c fl P L :
  round_ok c fl P -> incl L P -> (forall i, i < wr (fl_snd fl) -> covers L i) ->
  exists fl', run c fl P (flat_map deliver_op L) = (fl', P) /\ round_ok c fl' P /\ fl_snd fl' = fl_snd fl /\
    nread (rc_buf (fl_rcv fl')) + available (rc_buf (fl_rcv fl')) = wr (fl_snd fl) /\
    (has_fin L -> done_r (fl_rcv fl')).
Proof.
  intros Hr HL Hcov.
  destruct (run_phase c P KDeliver (fun fl' => fl_snd fl' = fl_snd fl)
              (fun fl' i => RB.covered (rc_buf (fl_rcv fl')) i) (fun fl' => rc_st (fl_rcv fl') <> RRecv))
    with (L := L) (fl := fl) as (fl' & E1 & E2 & _ & E4 & E5 & E6); [|exact HL|exact Hr|reflexivity|].
  - intros off len fin d fl1 fl2 out Hin Hr1 HI Es.
    destruct (deliver_step _ _ _ _ _ _ _ _ _ _ Hr1 Hin Es) as (_ & _ & D3 & D4 & D5).
    split; [congruence|]. split; [intros i _; exact (D4 i)|exact D5].
  - exists fl'. split; [exact E1|]. split; [exact E2|]. split; [exact E4|].
    destruct (round_inv _ _ _ E2) as [HFI (_ & [K1 _] & _)]. pose proof E2 as (_ & Hnr & _).
    pose proof HFI as [_ HR]. rewrite E4 in HR.
    assert (Full : nread (rc_buf (fl_rcv fl')) + available (rc_buf (fl_rcv fl')) = wr (fl_snd fl))
      by (eapply rcv_complete; [exact HR|]; intros i Hi; apply E5; auto).
    split; [exact Full|]. intro Hf.
    (* a recver that knows the size and is still open does not hold everything yet, says [LR] *)
    destruct (no_reset_rcv _ _ _ HFI Hnr) as [[Ho|[f Ho]]|Hd]; [destruct (E6 (or_intror Hf) Ho)| |exact Hd].
    destruct (K1 f Ho). destruct HR as (_ & _ & _ & R4 & _). rewrite Ho in R4. destruct R4 as (-> & _). exact Full.
Qed.

(* an acknowledgement adds the frame's range to what the sender has seen acknowledged, and its FIN; a complete
   sender has seen everything *)
Lemma ack_step c fl P off len fin d fl' new out :
  round_ok c fl P -> In (FrS off len fin d) P ->
  flow_step c fl (FAck off len fin) = (fl', new, out) ->
  fl_rcv fl' = fl_rcv fl /\ sn_shutcalled (fl_snd fl') = sn_shutcalled (fl_snd fl) /\
  (sn_st (fl_snd fl') = sn_st (fl_snd fl) \/ sn_st (fl_snd fl') = SDataRcvd) /\
  (forall i, i < wr (fl_snd fl) ->
     colr (st (sn_buf (fl_snd fl))) i = Recved \/ off <= i < off + len -> colr (st (sn_buf (fl_snd fl'))) i = Recved) /\
  ((sn_st (fl_snd fl) = SDataSent -> sn_fin (fl_snd fl) = FinRcvd) \/ fin = true ->
   sn_st (fl_snd fl') = SDataSent -> sn_fin (fl_snd fl') = FinRcvd).
Proof.
  intros Hr Hin E. pose proof Hr as (_ & Hnr & _). destruct (round_inv _ _ _ Hr) as [[(Hok & _) _] (HL & _)].
  pose proof HL as [[L1 _] _]. specialize (L1 _ _ _ _ Hin). rewrite <- (round_size _ _ _ Hr).
  assert (Col : forall b, on_data_acked (sn_buf (fl_snd fl)) off (off + len) = Some b ->
            forall i, i < size (st (sn_buf (fl_snd fl))) ->
              colr (st (sn_buf (fl_snd fl))) i = Recved \/ off <= i < off + len -> colr (st b) i = Recved).
  { intros b Eb i Hi Hc. destruct (sb_ack _ _ _ _ Hok Eb) as (_ & _ & _ & _ & _ & X). rewrite (X L1 i Hi).
    destruct (N.leb_spec off i); destruct (N.ltb_spec i (off + len)); cbn [andb]; try reflexivity; destruct Hc as [Hc|Hc]; try exact Hc; lia. }
  unfold flow_step in E.
  destruct (sn_st (fl_snd fl)) eqn:Est.
  - exfalso. exact (proj2 (proj2 (LS_at _ _ HL _ Est)) _ _ _ _ Hin).
  - rewrite (proj2 (LS_early _ _ HL (or_intror Est))) in E. unfold snd_on_acked in E. rewrite Est in E.
    destruct (ack_some _ off (off + len) Hok) as [b Eb]. rewrite Eb in E. specialize (Col b Eb).
    destruct (is_all_rcvd b && sn_flushw (fl_snd fl)); injection E as <- <- <-; cbn [fl_snd fl_rcv]; sn_simpl; rewrite ?Est;
      (do 2 (split; [reflexivity|])); (split; [left; reflexivity|split; [exact Col|discriminate]]).
  - destruct (LS_at _ _ HL _ Est) as (_ & _ & _ & Hi). rewrite Hi in E. unfold snd_on_acked in E. rewrite Est in E.
    destruct (ack_some _ off (off + len) Hok) as [b Eb]. rewrite Eb in E. specialize (Col b Eb).
    destruct (is_all_rcvd b && _); injection E as <- <- <-; cbn [fl_snd fl_rcv]; sn_simpl;
      (do 2 (split; [reflexivity|])); [split; [now right|split; [exact Col|discriminate]]|split; [now left|split; [exact Col|]]].
    intros [Hf| ->] _; [rewrite (Hf eq_refl); destruct fin|]; reflexivity.
  - assert (Hq : fl' = fl).
    { destruct (sn_inset (fl_snd fl)); [unfold snd_on_acked in E; rewrite Est in E|]; injection E as <- _ _; destruct fl; reflexivity. }
    subst fl'. do 2 (split; [reflexivity|]). split; [now left|]. split; [|rewrite Est; discriminate].
    intros i Hi _. exact (datarcvd_acked _ P Hok HL Est i Hi).
  - exfalso. apply Hnr. left. exact Est.
  - exfalso. apply Hnr. right. exact Est.
Qed.

Lemma all_R_retained b : sb_ok b -> (forall i, i < size (st b) -> colr (st b) i = Recved) -> written b <= max_data b ->
  retained b = 0.
Proof.
  intros Hok Hall Hw. apply N.eqb_eq, (SB.complete_iff b (proj2 Hok)). intros i Hi.
  rewrite <- (sb_size _ Hok Hw) in Hi. apply SB.colour_at_some. split; [exact Hi|exact (Hall i Hi)].
Qed.

Lemma ack_phase c fl P L :
  round_ok c fl P -> snd_drained (fl_snd fl) -> incl L P -> (forall i, i < wr (fl_snd fl) -> covers L i) ->
  (has_fin P -> has_fin L) ->
  exists fl', run c fl P (flat_map ack_op L) = (fl', P) /\ round_ok c fl' P /\ wr (fl_snd fl') = wr (fl_snd fl) /\
    fl_rcv fl' = fl_rcv fl /\
    (sn_st (fl_snd fl') = SDataRcvd /\ has_fin P \/
     sn_st (fl_snd fl') = SSending /\ sn_shutcalled (fl_snd fl') = false /\ retained (sn_buf (fl_snd fl')) = 0).
Proof.
  intros Hr [_ Hdst] HL Hcov HfinL.
  destruct (run_phase c P KAck
              (fun fl' => fl_rcv fl' = fl_rcv fl /\ sn_shutcalled (fl_snd fl') = sn_shutcalled (fl_snd fl) /\
                 (sn_st (fl_snd fl') = sn_st (fl_snd fl) \/ sn_st (fl_snd fl') = SDataRcvd))
              (fun fl' i => colr (st (sn_buf (fl_snd fl'))) i = Recved)
              (fun fl' => sn_st (fl_snd fl') = SDataSent -> sn_fin (fl_snd fl') = FinRcvd))
    with (L := L) (fl := fl) as (fl' & E1 & E2 & E3 & (E41 & E42 & E43) & E5 & E6); [|exact HL|exact Hr|auto|].
  - intros off len fin d fl1 fl2 out Hin Hr1 (HI1 & HI2 & HI3) Es.
    destruct (ack_step _ _ _ _ _ _ _ _ _ _ Hr1 Hin Es) as (A1 & A2 & A3 & A4 & A5).
    split; [|split; [exact A4|exact A5]]. split; [congruence|]. split; [congruence|].
    destruct A3 as [A3|A3]; [rewrite A3; exact HI3|now right].
  - exists fl'. do 4 (split; [assumption|]).
    destruct (round_inv _ _ _ Hr) as [_ (HL0 & _)]. destruct (round_inv _ _ _ E2) as [[(Hok' & _) _] (HL' & _)].
    assert (Dr : sn_st (fl_snd fl') = SDataRcvd -> sn_st (fl_snd fl') = SDataRcvd /\ has_fin P)
      by (intro Hd; split; [exact Hd|exact (proj1 (LS_at _ _ HL' _ Hd))]).
    assert (Ret : retained (sn_buf (fl_snd fl')) = 0).
    { apply (all_R_retained _ Hok'); [|exact (proj2 (proj2 E2))].
      intros i Hi. rewrite (round_size _ _ _ E2), E3 in Hi. apply E5; auto. }
    destruct E43 as [Est'|Hd]; [|left; auto].
    destruct (sn_st (fl_snd fl)) eqn:Est; try contradiction; [right| |left; auto].
    + split; [exact Est'|]. split; [congruence|exact Ret].
    + (* DataSent with every byte and the FIN acknowledged would be DataRcvd *)
      exfalso. destruct (LS_at _ _ HL' _ Est') as (_ & _ & B3 & _). apply B3. split; [exact Ret|].
      apply E6; [right; exact (HfinL (proj1 (LS_at _ _ HL0 _ Est)))|exact Est'].
Qed.

(* the boolean: the loop ended because nothing more was emitted, not because the fuel ran out *)
Fixpoint emit_loop (fuel : nat) (c : N -> Z) (fl : flow) (P : list fframe) (pred : N -> option N) (credit : N)
  : flow * list fframe * bool :=
  match fuel with
  | O => (fl, P, false)
  | S k =>
    let '(fl', new, out) := flow_step c fl (FTry pred credit) in
    match fo_pick out with
    | Some _ => emit_loop k c fl' (P ++ new) pred credit
    | None => (fl', P ++ new, true)
    end
  end.

Lemma emit_phase c pred credit : good_pred pred -> credit <> 0 -> forall fuel fl P fl' P',
  round_ok c fl P -> emit_loop fuel c fl P pred credit = (fl', P', true) ->
  round_ok c fl' P' /\ snd_drained (fl_snd fl').
Proof.
  intros Hg Hc. induction fuel as [|k IH]; intros fl P fl' P' Hr E; cbn [emit_loop] in E; [discriminate|].
  destruct (flow_step c fl (FTry pred credit)) as [[fl1 new] out] eqn:Es.
  destruct (try_step _ _ _ _ _ _ _ _ Hr (good_pred_pos _ Hg) Es) as (Hr1 & _ & _ & _ & Hd).
  destruct (fo_pick out); [exact (IH _ _ _ _ Hr1 E)|]. injection E as <- <-. split; [exact Hr1|auto].
Qed.

Definition flow_done (fl : flow) : Prop :=
  nread (rc_buf (fl_rcv fl)) + available (rc_buf (fl_rcv fl)) = wr (fl_snd fl) /\
  (sn_shutcalled (fl_snd fl) = true -> done_r (fl_rcv fl) /\ sn_st (fl_snd fl) = SDataRcvd) /\
  snd (snd_poll_flush (fl_snd fl)) = 1%Z /\
  (sn_shutcalled (fl_snd fl) = true -> snd (snd_poll_shutdown (fl_snd fl)) = 1%Z).

(* the frames may be delivered, and then acknowledged, in any order and any number of times, as long as each is *)
Lemma finish_any c fl P Ld La :
  round_ok c fl P -> snd_drained (fl_snd fl) -> incl Ld P -> incl P Ld -> incl La P -> incl P La ->
  exists fl3 fl4, run c fl P (flat_map deliver_op Ld) = (fl3, P) /\ run c fl3 P (flat_map ack_op La) = (fl4, P) /\
                  flow_done fl4 /\ FI c fl4 P /\ ~ is_reset (fl_snd fl4).
Proof.
  intros Hr Hdr Hd1 Hd2 Ha1 Ha2. destruct (round_inv _ _ _ Hr) as [[(Hok & _) _] ([[_ L2] _] & _)].
  assert (Hcov : forall i, i < wr (fl_snd fl) -> covers P i)
    by (intros i Hi; apply L2; rewrite (all_FR_sent _ Hok (proj1 Hdr)), (round_size _ _ _ Hr); exact Hi).
  destruct (deliver_phase c fl P Ld Hr Hd1 (fun i Hi => covers_incl _ _ _ Hd2 (Hcov i Hi)))
    as (fl3 & E1 & Hr3 & E2 & Hsum & Hfin).
  rewrite <- E2 in Hdr, Hcov.
  destruct (ack_phase c fl3 P La Hr3 Hdr Ha1 (fun i Hi => covers_incl _ _ _ Ha2 (Hcov i Hi)) (has_fin_incl _ _ Ha2))
    as (fl4 & F1 & Hr4 & Fw & F2 & Hsnd).
  exists fl3, fl4. split; [exact E1|]. split; [exact F1|].
  split; [|split; [exact (proj1 (round_inv _ _ _ Hr4))|exact (proj1 (proj2 Hr4))]].
  unfold flow_done. rewrite F2, Fw, E2. split; [exact Hsum|].
  unfold snd_poll_flush, snd_poll_shutdown.
  destruct Hsnd as [(Hd & Hf)|(Hd & Hs & Hret)]; rewrite Hd.
  - split; [intros _; split; [exact (Hfin (has_fin_incl _ _ Hd2 Hf))|reflexivity]|]. split; [reflexivity|auto].
  - split; [intro Hq; congruence|]. unfold is_all_rcvd. rewrite Hret. cbn. split; [reflexivity|intro Hq; congruence].
Qed.

Lemma finish c fl P :
  round_ok c fl P -> snd_drained (fl_snd fl) ->
  exists fl3 fl4, run c fl P (flat_map deliver_op P) = (fl3, P) /\ run c fl3 P (flat_map ack_op P) = (fl4, P) /\
                  flow_done fl4 /\ FI c fl4 P /\ ~ is_reset (fl_snd fl4).
Proof. intros Hr Hd. exact (finish_any c fl P P P Hr Hd (incl_refl P) (incl_refl P) (incl_refl P) (incl_refl P)). Qed.

(* why the progress theorem reads twice: the read that empties a complete recver ends in DataRead, the next
   one reports the end *)
Lemma read_all c r W (pf sc : Prop) P room r' z out :
  RI c r W pf sc P -> nread (rc_buf r) + available (rc_buf r) = W -> W < room -> open_r r \/ done_r r ->
  rc_poll_read r room = (r', z, out) ->
  nread (rc_buf r') = W /\ available (rc_buf r') = 0 /\ (open_r r' \/ done_r r') /\
  (done_r r -> rc_st r' = RDataRead) /\ (rc_st r = RDataRead -> rc_eos r' = true).
Proof.
  intros HR Hsum Hroom Hst E. pose proof HR as (R1 & R2 & _ & R4 & _). unfold rc_poll_read in E. unfold open_r, done_r in *.
  assert (Rd : forall b' o, try_read (rc_buf r) room = (b', o) -> nread b' = W /\ available b' = 0 /\ segs b' = []).
  { intros b' o Et. destruct (RB.try_read_spec _ _ _ _ _ R1 Et) as (T1 & S2 & _ & T5 & _ & T2).
    split; [lia|]. split; [lia|]. apply (drained c); [exact T1|lia]. }
  destruct (rc_st r) eqn:Est.
  1,2: destruct (is_readable (rc_buf r)) eqn:Erd;
    [destruct (try_read (rc_buf r) room) as [b' o] eqn:Et; destruct (Rd _ _ eq_refl) as (A & B & _)
    |rewrite (RB.is_readable_avail _ _ R1) in Erd; apply N.ltb_ge, N.le_0_r in Erd; rename Erd into B;
     assert (A : nread (rc_buf r) = W) by lia];
    injection E as <- _ _; rc_simpl; (split; [exact A|split; [exact B|split; [left; eauto|]]]);
    (split; [intros [[f Hq]|Hq]; discriminate|discriminate]).
  - destruct (try_read (rc_buf r) room) as [b' o] eqn:Et. destruct (Rd _ _ eq_refl) as (A & B & C).
    injection E as <- _ _. rc_simpl. rewrite C. split; [exact A|]. split; [exact B|]. split; [right; now right|]. split; [auto|discriminate].
  - injection E as <- _ _. rc_simpl. destruct R4 as (A & _). split; [exact A|]. split; [lia|]. split; [right; now right|].
    split; [auto|]. intros _. destruct (N.eqb_spec room 0); [lia|]. cbn. apply orb_true_r.
  - destruct Hst as [[Hq|[f Hq]]|[[f Hq]|Hq]]; discriminate Hq.
  - destruct Hst as [[Hq|[f Hq]]|[[f Hq]|Hq]]; discriminate Hq.
Qed.

Lemma reads_finish c fl P room fl' P' :
  FI c fl P -> ~ is_reset (fl_snd fl) -> flow_done fl -> wr (fl_snd fl) < room ->
  run c fl P [FRead room; FRead room] = (fl', P') ->
  rc_got (fl_rcv fl') = written_bytes c fl' /\ (sn_shutcalled (fl_snd fl') = true -> rc_eos (fl_rcv fl') = true).
Proof.
  intros HFI Hnr (D1 & D2 & _) Hroom E. cbn [run flow_step] in E.
  destruct (rc_poll_read (fl_rcv fl) room) as [[r1 z1] o1] eqn:E1. cbn [fl_snd fl_rcv] in E.
  destruct (rc_poll_read r1 room) as [[r2 z2] o2] eqn:E2. injection E as <- _. cbn [fl_snd fl_rcv].
  pose proof HFI as [_ HR].
  pose proof (step_read _ _ _ _ _ _ room HR) as HR1. rewrite E1 in HR1. cbn [fst] in HR1.
  pose proof (step_read _ _ _ _ _ _ room HR1) as HR2. rewrite E2 in HR2. cbn [fst] in HR2.
  destruct (read_all _ _ _ _ _ _ _ _ _ _ HR D1 Hroom (no_reset_rcv _ _ _ HFI Hnr) E1) as (A1 & A2 & A3 & A4 & _).
  destruct (read_all _ _ _ _ _ _ _ _ _ _ HR1 ltac:(lia) Hroom A3 E2) as (B1 & _ & _ & _ & B5).
  destruct HR2 as (_ & _ & G3 & _). split.
  - rewrite G3, B1. reflexivity.
  - intro Hs. apply B5, A4. exact (proj1 (D2 Hs)).
Qed.

Definition good_round (fuel : nat) (c : N -> Z) (fl : flow) (P : list fframe) (pred : N -> option N) (credit : N)
  : flow * list fframe * bool :=
  let '(fl1, P1) := run c fl P (flat_map lose_op P) in
  let '(fl2, P2, ok) := emit_loop fuel c fl1 P1 pred credit in
  let '(fl3, P3) := run c fl2 P2 (flat_map deliver_op P2) in
  let '(fl4, P4) := run c fl3 P3 (flat_map ack_op P3) in
  (fl4, P4, ok).
