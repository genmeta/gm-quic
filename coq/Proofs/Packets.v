(* Packet headers and transport parameters: round trips (C05) and totality (C03). *)
From Coq Require Import List ZArith Lia.
From GQ Require Import Lib.Wire Model.Varint Model.Frames Model.Packets Model.Params
                       Proofs.Wire Proofs.Frames Proofs.FramesTotal.
Import ListNotations.
Local Open Scope Z_scope.

Lemma p_c05_packet_type_rt t rest : be_packet_type (put_packet_type t ++ rest) = TOk t rest.
Proof.
  destruct t as [|v|spin].
  - reflexivity.
  - destruct v; reflexivity.
  - destruct spin; reflexivity.
Qed.

Definition cid_ok (c : list Z) : Prop := zlen c <= MAX_CID_SIZE.

Definition wf_header (h : header) : Prop :=
  match h with
  | HVN d s vs => cid_ok d /\ cid_ok s /\ Forall (fun v => 0 <= v < 2 ^ 32) vs
  | HRetry d s _ integ => cid_ok d /\ cid_ok s /\ zlen integ = 16
  | HInitial d s tok => cid_ok d /\ cid_ok s /\ varint_ok (zlen tok)
  | HZeroRtt d s | HHandshake d s => cid_ok d /\ cid_ok s
  | HOneRtt _ d => True
  end.

(* version negotiation and retry headers extend to the end of the datagram *)
Definition htail_ok (h : header) (rest : list Z) : Prop :=
  match h with HVN _ _ _ | HRetry _ _ _ _ => rest = [] | _ => True end.

Definition dcid_len_of (h : header) (n : Z) : Prop :=
  match h with HOneRtt _ d => n = zlen d | _ => True end.

Lemma be_versions_rt vs : forall fuel, Forall (fun v => 0 <= v < 2 ^ 32) vs -> (length vs <= fuel)%nat ->
  be_versions fuel (put_versions vs) = Ok vs [].
Proof.
  induction vs as [|v r IH]; intros fuel H Hf.
  - destruct fuel; reflexivity.
  - inversion H as [|? ? Hv Hr]; subst. cbn [put_versions].
    destruct fuel as [|fuel]; [cbn [length] in Hf; lia|].
    assert (Hne : put_be 4 v ++ put_versions r <> []).
    { intro E. apply (f_equal (@length Z)) in E. rewrite app_length, put_be_length in E. cbn in E. lia. }
    destruct (put_be 4 v ++ put_versions r) as [|b t] eqn:Eb; [contradiction|].
    cbn [be_versions]. rewrite <- Eb.
    rewrite get_be_put_be_exact by (change (256 ^ Z.of_nat 4) with (2^32); lia).
    rewrite IH by (assumption || (cbn [length] in Hf; lia)). reflexivity.
Qed.

Lemma put_versions_len vs : length (put_versions vs) = (4 * length vs)%nat.
Proof. induction vs as [|v r IH]; cbn [put_versions length]; [reflexivity|]. rewrite app_length, put_be_length, IH. lia. Qed.

Lemma header_body h :
  put_header h = put_packet_type (header_type h) ++ skipn (length (put_packet_type (header_type h))) (put_header h).
Proof. unfold put_header. rewrite skipn_app, skipn_all, Nat.sub_diag. reflexivity. Qed.

Lemma bind_cids {B} (k : list Z -> list Z -> parser B) d s rest : cid_ok d -> cid_ok s ->
  (d <- be_cid ;; s <- be_cid ;; k d s) (put_cid d ++ put_cid s ++ rest) = k d s rest.
Proof. intros Hd Hs. rewrite bind_cid by exact Hd. apply bind_cid, Hs. Qed.

(* Params.length_data_p is the same parser *)
Lemma length_data_rt d rest : varint_ok (zlen d) -> length_data (put_varint (zlen d) ++ d ++ rest) = Ok d rest.
Proof. intro H. unfold length_data. rewrite bind_varint by exact H. apply take_s_app. reflexivity. Qed.

Lemma p_c05_header_rt h n body rest : wf_header h -> htail_ok h rest -> dcid_len_of h n ->
  put_header h = put_packet_type (header_type h) ++ body ->
  be_header (header_type h) n (body ++ rest) = Ok h rest.
Proof.
  intros Hwf Ht Hn E. unfold put_header in E. apply app_inv_head in E. subst body.
  destruct h as [d s vs|d s tok integ|d s tok|d s|d s|spin d];
    cbn [header_type be_header wf_header htail_ok dcid_len_of] in *; rewrite <- ?app_assoc.
  - destruct Hwf as (Hd & Hs & Hv). subst rest. rewrite app_nil_r, bind_cids by assumption.
    rewrite be_versions_rt; [reflexivity|assumption|]. rewrite put_versions_len. lia.
  - destruct Hwf as (Hd & Hs & Hi). subst rest. rewrite app_nil_r, bind_cids by assumption.
    rewrite zlen_app, Hi. destruct (Z.ltb_spec (zlen tok + 16) 16); [pose proof (zlen_nonneg tok); lia|].
    replace (zlen tok + 16 - 16) with (zlen tok) by lia. now rewrite firstn_zlen_app, skipn_zlen_app.
  - destruct Hwf as (Hd & Hs & Hl). rewrite bind_cids by assumption.
    erewrite bind_ok by (apply length_data_rt, Hl). reflexivity.
  - destruct Hwf as (Hd & Hs). now rewrite bind_cids.
  - destruct Hwf as (Hd & Hs). now rewrite bind_cids.
  - subst n. erewrite bind_ok by (apply take_s_app; reflexivity). reflexivity.
Qed.

Lemma p_c05_header_size h : wf_header h ->
  match h with HVN _ _ _ | HRetry _ _ _ _ => True | _ => zlen (put_header h) = header_size h end.
Proof.
  intros _. destruct h; try exact I; unfold put_header, header_size, put_cid;
    cbn [header_type put_packet_type]; szn; lia.
Qed.

Lemma safe_length_data : safe length_data.
Proof. unfold length_data. auto with parse. Qed.

Lemma length_data_ok bs d r : length_data bs = Ok d r -> zlen d + zlen r < zlen bs.
Proof.
  unfold length_data, bind. destruct (be_varint bs) as [n r1| | |] eqn:Ev; try discriminate.
  apply strict_be_varint in Ev. unfold take_s. destruct (zlen r1 <? n); [discriminate|].
  intros [= <- <-]. rewrite <- zlen_app, firstn_skipn. exact Ev.
Qed.

Lemma safe_be_versions : forall fuel, safe (be_versions fuel).
Proof.
  induction fuel as [|fuel IH]; intros [|b t]; cbn [be_versions].
  1,3: split; [discriminate|intros v r [= <- <-]; lia].
  1: split; discriminate.
  destruct (get_be 4 0 (b :: t)) as [[v r]|] eqn:E; [|split; discriminate]. apply get_be_len in E.
  destruct (be_versions fuel r) as [vs r'| | |s] eqn:Ev; split; try discriminate.
  - intros v' r'' [= <- <-]. apply (safe_le _ IH) in Ev. lia.
  - elim (safe_no_panic _ IH _ _ Ev).
Qed.

Lemma be_header_yields t n : yields (fun h => header_type h = t) (be_header t n).
Proof.
  pose proof safe_length_data. pose proof safe_be_versions.
  destruct t as [|[]|spin]; cbn [be_header]; auto 6 with parse.
  (* left: version negotiation and retry, whose tails behind the two connection ids are not written with the combinators *)
  all: apply yields_bind; [apply safe_be_cid|intro d]; apply yields_bind; [apply safe_be_cid|intro s].
  - (* the match on the result of be_versions is a bind, with fuel taken from the input *)
    assert (Y : forall k, yields (fun h => header_type h = TyVN) (vs <- be_versions k ;; ret (HVN d s vs)))
      by auto with parse.
    split; intro bs; apply (Y (S (length bs))).
  - split; [intro bs; split|intros bs v r]; destruct (zlen bs <? 16); try discriminate.
    + intros v r [= _ <-]. apply zlen_nonneg.
    + now intros [= <- _].
Qed.

Lemma safe_be_header t n : safe (be_header t n).
Proof. apply be_header_yields. Qed.

Lemma be_packet_type_ok bs t r : be_packet_type bs = TOk t r ->
  zlen r < zlen bs /\ match t with TyShort _ => true | _ => false end = negb (bit_set (hd 0 bs) 128).
Proof.
  unfold be_packet_type. destruct bs as [|ty rest]; [discriminate|]. rewrite zlen_cons. cbn [hd].
  destruct (negb (bit_set ty 128)); [intros [= <- <-]; split; [lia|reflexivity]|].
  destruct (get_be 4 0 rest) as [[ver r']|] eqn:E; [|discriminate]. apply get_be_len in E.
  destruct (ver =? 0); [intros [= <- <-]; split; [lia|reflexivity]|].
  destruct (ver =? 1); [|discriminate].
  destruct (negb (bit_set ty 64)); [discriminate|]. intros [= <- <-]. split; [lia|reflexivity].
Qed.

Lemma p_c03_packet_no_panic n dg s : be_packet n dg <> PPanic s.
Proof.
  unfold be_packet. destruct (be_packet_type dg) as [t remain|e]; [|discriminate].
  destruct (be_header t n remain) as [h remain'| | |st] eqn:Eh; try discriminate.
  - destruct h; try discriminate.
    1-3: destruct (length_data remain') as [payload rest| | |st] eqn:El; try discriminate;
      [destruct (zlen payload <? 20); discriminate|elim (safe_no_panic _ safe_length_data _ _ El)].
    destruct (zlen remain' <? 20); discriminate.
  - elim (safe_no_panic _ (safe_be_header t n) _ _ Eh).
Qed.

Lemma be_packet_ok n dg h total off : be_packet n dg = POk h total off ->
  exists t remain remain', be_packet_type dg = TOk t remain /\ be_header t n remain = Ok h remain' /\
    match h with
    | HVN _ _ _ | HRetry _ _ _ _ => total = zlen dg /\ off = zlen dg
    | HOneRtt _ _ => 20 <= zlen remain' /\ total = zlen dg /\ off = zlen dg - zlen remain'
    | _ => exists payload rest, length_data remain' = Ok payload rest /\ 20 <= zlen payload /\
                                total = zlen dg - zlen rest /\ off = total - zlen payload
    end.
Proof.
  unfold be_packet. destruct (be_packet_type dg) as [t remain|e]; [|discriminate].
  destruct (be_header t n remain) as [h' remain'| | |st] eqn:Eh; try discriminate.
  intro H. exists t, remain, remain'.
  destruct h'; try (injection H as <- <- <-; auto).
  1-3: destruct (length_data remain') as [payload rest| | |]; try discriminate;
    destruct (Z.ltb_spec (zlen payload) 20); [discriminate|]; injection H as <- <- <-;
    split; [reflexivity|]; split; [exact Eh|]; exists payload, rest; auto.
  destruct (Z.ltb_spec (zlen remain') 20); [discriminate|]. injection H as <- <- <-. auto.
Qed.

Lemma p_c03_packet_bounds n dg h total off :
  be_packet n dg = POk h total off -> 0 < total <= zlen dg /\ 0 <= off <= total.
Proof.
  intro H. destruct (be_packet_ok _ _ _ _ _ H) as (t & remain & remain' & Et & Eh & Hh).
  apply be_packet_type_ok in Et. apply (safe_le _ (safe_be_header t n)) in Eh.
  pose proof (zlen_nonneg remain').
  destruct h; try lia; destruct Hh as (payload & rest & El & Hp & -> & ->);
    apply length_data_ok in El; pose proof (zlen_nonneg rest); lia.
Qed.

Definition ptotal (r : pres) : Z := match r with POk _ t _ => t | _ => 0 end.
Definition sum_totals (rs : list pres) : Z := fold_right (fun r a => ptotal r + a) 0 rs.

Lemma safe_be_raw_parameter : safe be_raw_parameter.
Proof. unfold be_raw_parameter, length_data_p. auto 6 with parse. Qed.

Lemma strict_be_raw_parameter : strict be_raw_parameter.
Proof. apply strict_bind_l; [apply strict_be_varint|]. unfold length_data_p. auto 6 with parse. Qed.

Lemma parse_loop_S fuel r m buf : buf <> [] ->
  parse_loop (S fuel) r m buf =
  match be_raw_parameter buf with
  | Ok (id, data) rest =>
      match param_row_of id with
      | None => parse_loop fuel r m rest
      | Some row => if negb (belong_to id r) then PaErr
                    else match be_param_value (p_type row) data with
                         | None => PaErr
                         | Some v => if in_bound row v then parse_loop fuel r (pm_set m id v) rest else PaErr
                         end
      end
  | Panic s => PaPanic s
  | _ => PaErr
  end.
Proof. destruct buf; [congruence|reflexivity]. Qed.

Lemma parse_loop_inv (Inv : pmap_t -> Prop) r :
  (forall m id row data v, Inv m -> param_row_of id = Some row -> belong_to id r = true ->
     be_param_value (p_type row) data = Some v -> in_bound row v = true -> Inv (pm_set m id v)) ->
  forall fuel m buf, Inv m ->
  match parse_loop fuel r m buf with PaOk m' => Inv m' | PaErr => True | PaPanic _ => False end.
Proof.
  intro Hset. induction fuel as [|fuel IH]; intros m [|b t] Hm; try exact Hm; [exact I|].
  rewrite parse_loop_S by discriminate.
  destruct (be_raw_parameter (b :: t)) as [[id data] rest| | |st] eqn:E; try exact I.
  - destruct (param_row_of id) as [row|] eqn:Er; [|now apply IH].
    destruct (belong_to id r) eqn:Eb; cbn [negb]; [|exact I].
    destruct (be_param_value (p_type row) data) as [v|] eqn:Ev; [|exact I].
    destruct (in_bound row v) eqn:Ei; [|exact I]. apply IH. eapply Hset; eassumption.
  - exact (safe_no_panic _ safe_be_raw_parameter _ _ E).
Qed.

Lemma parse_loop_no_panic r fuel m buf s : parse_loop fuel r m buf <> PaPanic s.
Proof.
  intro E. pose proof (parse_loop_inv (fun _ => True) r (fun _ _ _ _ _ _ _ _ _ _ => I) fuel m buf I) as H.
  now rewrite E in H.
Qed.

Lemma p_c03_remembered_no_panic buf s : parse_remembered buf <> PaPanic s.
Proof. unfold parse_remembered. apply parse_loop_no_panic. Qed.

Definition value_type (v : pvalue) : pvtype :=
  match v with
  | PVVarInt _ => VTVarInt | PVTrue => VTBoolean | PVBytes _ => VTBytes | PVDuration _ => VTDuration
  | PVResetToken _ => VTResetToken | PVCid _ => VTConnectionId | PVPrefAddr _ _ _ _ => VTPreferredAddress
  end.

Definition wf_value (v : pvalue) : Prop :=
  match v with
  | PVVarInt x | PVDuration x => varint_ok x
  | PVTrue => True
  | PVBytes b => varint_ok (zlen b)
  | PVResetToken t => zlen t = RESET_TOKEN_SIZE
  | PVCid c => zlen c <= MAX_CID_SIZE
  | PVPrefAddr a4 a6 cid tok => zlen a4 = 6 /\ zlen a6 = 18 /\ zlen cid <= MAX_CID_SIZE /\ zlen tok = RESET_TOKEN_SIZE
  end.

(* the bytes of the value as they sit between the length prefix and the next parameter *)
Definition value_bytes (v : pvalue) : list Z :=
  match v with
  | PVBytes b => b
  | PVCid c => c
  | PVDuration ms => put_varint ms
  | PVTrue => []
  | PVPrefAddr a4 a6 cid tok => a4 ++ a6 ++ put_cid cid ++ tok
  | PVResetToken t => t
  | PVVarInt x => put_varint x
  end.

Lemma put_param_split id v : wf_value v ->
  put_param id v = put_varint id ++ put_varint (zlen (value_bytes v)) ++ value_bytes v.
Proof.
  intro H. unfold put_param. f_equal.
  destruct v as [x| |b|ms|t|c|a4 a6 cid tok]; cbn [value_bytes wf_value] in *.
  - now rewrite put_varint_length.
  - rewrite app_nil_r. reflexivity.
  - reflexivity.
  - now rewrite put_varint_length.
  - now rewrite H.
  - unfold put_cid. unfold MAX_CID_SIZE in H. pose proof (zlen_nonneg c).
    rewrite put_varint_small by lia. reflexivity.
  - destruct H as (H1 & H2 & H3 & H4). unfold put_cid.
    rewrite !zlen_app, zlen_cons, H1, H2, H4. unfold RESET_TOKEN_SIZE. do 2 f_equal. lia.
Qed.

Lemma be_raw_parameter_rt id v rest : varint_ok id -> wf_value v -> varint_ok (zlen (value_bytes v)) ->
  be_raw_parameter (put_param id v ++ rest) = Ok (id, value_bytes v) rest.
Proof.
  intros Hid Hv Hl. rewrite (put_param_split _ _ Hv), <- !app_assoc.
  unfold be_raw_parameter. rewrite bind_varint by assumption.
  erewrite bind_ok by (apply length_data_rt, Hl). reflexivity.
Qed.

Lemma whole_rt {A} (p : parser A) enc v : (forall rest, p (enc ++ rest) = Ok v rest) -> whole (p enc) = Some v.
Proof. intro H. rewrite <- (app_nil_r enc), H. reflexivity. Qed.

Lemma be_param_value_rt v : wf_value v -> be_param_value (value_type v) (value_bytes v) = Some v.
Proof.
  intro H. destruct v as [x| |b|ms|t|c|a4 a6 cid tok]; cbn [value_type value_bytes be_param_value wf_value] in *;
    try reflexivity; try (apply whole_rt; intro rest; unfold pmap).
  - now rewrite bind_varint.
  - now rewrite bind_varint.
  - erewrite bind_ok by (apply take_c_app; now symmetry). reflexivity.
  - destruct (Z.ltb_spec MAX_CID_SIZE (zlen c)); [lia|reflexivity].
  - destruct H as (H1 & H2 & H3 & H4). unfold be_pref_addr. rewrite <- !app_assoc.
    erewrite !bind_ok; [reflexivity|apply take_c_app|apply be_cid_rt|apply take_s_app|apply take_s_app];
      auto using eq_sym.
Qed.

Definition wf_entry (r : role) (e : Z * pvalue) : Prop :=
  let '(id, v) := e in
  varint_ok id /\ wf_value v /\ varint_ok (zlen (value_bytes v)) /\
  exists row, param_row_of id = Some row /\ p_type row = value_type v /\
              belong_to id r = true /\ in_bound row v = true.

Definition set_list (l : pmap_t) : pmap_t := fold_left (fun m e => pm_set m (fst e) (snd e)) l [].

Lemma parse_loop_rt r : forall l fuel m, Forall (wf_entry r) l -> (length l < fuel)%nat ->
  parse_loop fuel r m (put_params l) = PaOk (fold_left (fun m e => pm_set m (fst e) (snd e)) l m).
Proof.
  induction l as [|[id v] t IH]; intros [|fuel] m Hwf Hf; try (inversion Hf; fail); [reflexivity|].
  inversion Hwf as [|? ? He Ht]; subst. destruct He as (Hid & Hv & Hl & row & Hrow & Hty & Hb & Hin).
  cbn [put_params fold_left fst snd length] in *.
  rewrite parse_loop_S.
  - rewrite be_raw_parameter_rt by assumption. rewrite Hrow, Hb. cbn [negb].
    rewrite Hty, be_param_value_rt by assumption. rewrite Hin. apply IH; [assumption|lia].
  - unfold put_param. rewrite <- app_assoc. intro E. apply app_eq_nil in E. exact (put_varint_nonempty _ (proj1 E)).
Qed.

Lemma put_params_len l : (length l <= length (put_params l))%nat.
Proof.
  induction l as [|[id v] t IH]; cbn [put_params length]; [lia|].
  rewrite app_length. unfold put_param. rewrite app_length.
  pose proof (put_varint_length id) as L1. pose proof (varint_size_pos id). unfold zlen in L1. lia.
Qed.

Lemma pm_get_set m id v id' : pm_get (pm_set m id v) id' = if id =? id' then Some v else pm_get m id'.
Proof.
  induction m as [|[k w] t IH]; cbn [pm_set pm_get].
  - reflexivity.
  - destruct (Z.eqb_spec k id) as [->|NE]; cbn [pm_get].
    + destruct (Z.eqb_spec id id'); reflexivity.
    + destruct (Z.eqb_spec k id') as [->|NE'].
      * destruct (Z.eqb_spec id id'); [congruence|reflexivity].
      * exact IH.
Qed.

Fixpoint last_value (l : pmap_t) (id : Z) (acc : option pvalue) : option pvalue :=
  match l with
  | [] => acc
  | (k, v) :: t => last_value t id (if k =? id then Some v else acc)
  end.
