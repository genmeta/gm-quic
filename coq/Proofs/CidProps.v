(* What the invariants of the connection-ID system say, and the histories that start in [sys_init]:
   the lemmas that carry the statements of Properties/C14.v. *)
From Coq Require Import List NArith Bool Lia Permutation.
From GQ Require Import Lib.Base Model.Router Model.LocalCid Model.RemoteCid Model.Cid
  Proofs.Router Proofs.LocalCid Proofs.RemoteCid Proofs.RemoteInv Proofs.Cid Proofs.CidSys.
Import ListNotations.
Local Open Scope N_scope.

Definition no_force (ops : list op) : bool := forallb (fun o => negb (is_force o)) ops.

(* the class of the known finding F18: a frame whose span [retire_prior_to, sequence] has limit+1 numbers *)
Definition f18_class (lim : N) (o : op) : bool :=
  match o with
  | ONewCid seq rpt _ => (rpt <=? seq) && (seq - rpt =? lim)
  | _ => false
  end.
Definition no_f18 (lim : N) (ops : list op) : bool := forallb (fun o => negb (f18_class lim o)) ops.

Definition stored (s : sys) : N := N.of_nat (count_some (r_cids (s_remote s))).

Lemma nodup_app : forall (a b : list N), NoDup (a ++ b) -> NoDup a /\ NoDup b.
Proof.
  induction a as [|x r IH]; intros b H; cbn [app] in H; [split; [constructor|assumption]|].
  inversion H; subst. destruct (IH _ H3). split; [constructor|]; auto.
  intro Hin. apply H2. apply in_or_app. left. assumption.
Qed.

Lemma remote_nodup : forall r em, RPre r em -> NoDup em /\ NoDup (held (r_cells r)).
Proof.
  intros r em HP. apply nodup_app.
  eapply Permutation_NoDup; [symmetry; exact (p_perm _ _ HP)|apply nseq_nodup].
Qed.

Lemma init_fits : forall limit npre hs id0, 1 <= limit -> Fits (remote_init limit npre hs id0).
Proof.
  intros limit npre hs id0 Hl. destruct (init_cids limit npre hs id0) as [C1 C2].
  unfold Fits. rewrite C1, C2. exact Hl.
Qed.

Lemma reach_counts : forall rnd fuel cs, LReach rnd fuel cs ->
  forall i cn l, nth_error cs i = Some cn -> c_local cn = Some l ->
    (exists fs, lreach renv (genq rnd fuel (N.of_nat i)) retire_cid l fs) /\
    (forall n, l_limit l = Some n -> l_active l <= n) /\
    (l_limit l = None -> l_active l <= 2).
Proof.
  intros rnd fuel cs HR i cn l Hn Hl. destruct (HR i cn l Hn Hl) as [fs Hfs].
  split; [exists fs; exact Hfs|exact (lreach_count _ _ _ _ _ Hfs)].
Qed.

(* every routed ID belongs to a connection that is alive and still owns it *)
Lemma VB_owner : forall s, VB (view_of s) ->
  forall x q, route (s_env s) x = Some q ->
    exists i cn l, q = N.of_nat i /\ nth_error (s_conns s) i = Some cn /\ c_local cn = Some l /\
                   (In (Some x) (l_cells l) \/ c_odcid cn = Some x).
Proof.
  intros s HB x q Hx. destruct (HB x q Hx) as [i [a [od [Hq [Hi Ho]]]]].
  cbn [view_of snd] in Hi. rewrite nth_error_map in Hi.
  destruct (nth_error (s_conns s) i) as [cn|] eqn:EN; [|discriminate]. unfold cview_of in Hi. cbn [option_map] in Hi.
  destruct (c_local cn) as [l|] eqn:EL; inversion Hi; subst a od.
  - exists i, cn, l. rewrite in_somes in Ho. auto.
  - destruct Ho as [[]|Ho]; discriminate.
Qed.

(* every active ID is routed to its own connection; no ID has two owners *)
Lemma VC_routes : forall s, VC (view_of s) ->
  (forall i cn l x, nth_error (s_conns s) i = Some cn -> c_local cn = Some l ->
     In (Some x) (l_cells l) -> route (s_env s) x = Some (N.of_nat i)) /\
  (forall i j ci cj li lj x, nth_error (s_conns s) i = Some ci -> nth_error (s_conns s) j = Some cj ->
     c_local ci = Some li -> c_local cj = Some lj ->
     In (Some x) (l_cells li) -> In (Some x) (l_cells lj) -> i = j).
Proof.
  intros s HC.
  assert (Hroute : forall i cn l x, nth_error (s_conns s) i = Some cn -> c_local cn = Some l ->
            In (Some x) (l_cells l) -> route (s_env s) x = Some (N.of_nat i)).
  { intros i cn l x Hn Hl Hin. apply (map_nth_error cview_of) in Hn. unfold cview_of in Hn. rewrite Hl in Hn.
    apply (proj2 (HC i _ _ Hn)). apply in_somes. exact Hin. }
  split; [exact Hroute|].
  intros i j ci cj li lj x Hi Hj Hli Hlj Hxi Hxj.
  pose proof (Hroute _ _ _ _ Hi Hli Hxi) as R1. pose proof (Hroute _ _ _ _ Hj Hlj Hxj) as R2.
  rewrite R1 in R2. inversion R2. lia.
Qed.

Lemma rinv_one_cid_per_path : forall r em, RInv r em ->
  (* no sequence number is held twice, by one path or by two *)
  NoDup (held (r_cells r)) /\
  (* also for a cell id outside the store: see [get_cell_ok] *)
  forall p,
    let c := get_cell (r_cells r) p in
    (a_retired c = true -> a_alloc c = []) /\
    (a_retired c = false -> a_using c = false -> (length (a_alloc c) <= 1)%nat).
Proof.
  intros r em [HP _]. split; [exact (proj2 (remote_nodup _ _ HP))|].
  intros p. exact (get_cell_ok _ p (p_cells _ _ HP)).
Qed.

Lemma rinv_retire_prior_to : forall r em, RInv r em ->
  (* every sequence number below the cursor: one RETIRE_CONNECTION_ID, or still held by one path *)
  Permutation (em ++ held (r_cells r)) (nseq 0 (N.to_nat (r_cursor r))) /\
  NoDup em /\
  (* stored IDs start at retire-prior-to; the cursor is past it *)
  r_coff r = r_roff r /\ r_roff r <= r_cursor r /\
  (* paths in ready_cells have switched: retired, or their newest ID is their index >= retire-prior-to *)
  (forall j p, nth_error (r_ready r) j = Some p ->
     a_retired (get_cell (r_cells r) p) = true \/
     exists id rest, a_alloc (get_cell (r_cells r) p) = (r_roff r + N.of_nat j, id) :: rest) /\
  (* no stored ID waits at the cursor while a path is pending *)
  (r_pending r = [] \/ forall x, dq_get (r_coff r) (r_cids r) (r_cursor r) <> Some (Some x)).
Proof.
  intros r em [HP HA].
  split; [exact (p_perm _ _ HP)|]. split; [exact (proj1 (remote_nodup _ _ HP))|].
  split; [exact (p_al _ _ HP)|]. split; [rewrite (p_cur _ _ HP); lia|].
  split; [exact (p_ready _ _ HP)|exact HA].
Qed.

Lemma rinv_drain_assert : forall r em seq rpt id, RInv r em ->
  rpt <= seq -> r_roff r < rpt -> drain_ok (inserted r seq id) rpt = true.
Proof. intros r em seq rpt id [HP _]. exact (p_drain_ok r seq rpt id (p_al _ _ HP)). Qed.

Section Sys.
  Variable rnd : N -> cid.
  Variable fuel : nat.

  Section Init.
    Variables (chk : N -> N -> N -> bool) (post : rcids -> bool) (limit : N) (npre hs : nat) (id0 : cid).
    Variables (ops : list op) (s : sys) (xs : list out).
    Hypothesis Hrun : steps chk post rnd fuel (sys_init limit npre hs id0) ops = (s, xs).

    Lemma init_reach : LReach rnd fuel (s_conns s).
    Proof. eapply steps_reach; [|exact Hrun]. intros [|j] cn0 l0 Hj; discriminate. Qed.

    Lemma init_VB : VB (view_of s).
    Proof. exact (steps_VB _ _ _ _ _ (sys_init limit npre hs id0) _ _ (proj1 view_nil) Hrun). Qed.

    Lemma init_VC : no_force ops = true -> VC (view_of s).
    Proof. intros Hnf. exact (steps_VC _ _ _ _ _ (sys_init limit npre hs id0) _ _ Hnf (proj2 view_nil) Hrun). Qed.

    Lemma init_remote : (hs < npre)%nat -> RInv (s_remote s) (emitted xs).
    Proof. intros Hhs. exact (proj1 (steps_remote _ _ _ _ _ (sys_init limit npre hs id0) [] _ _ (init_inv _ _ _ _ Hhs) Hrun)). Qed.

    Lemma init_limit : r_limit (s_remote s) = limit.
    Proof. rewrite (steps_limit _ _ _ _ _ _ _ _ Hrun). apply init_cids. Qed.

    Lemma p_c14_remote_limit_sound : sound_chk chk -> 1 <= limit -> (hs < npre)%nat ->
      stored s <= limit /\ lenN (r_cids (s_remote s)) <= limit /\ r_limit (s_remote s) = limit.
    Proof.
      intros HS Hl Hhs.
      pose proof (proj2 (steps_remote _ _ _ _ _ (sys_init limit npre hs id0) [] _ _ (init_inv _ _ _ _ Hhs) Hrun) HS (init_fits _ _ _ _ Hl)) as HF.
      unfold Fits in HF. rewrite init_limit in HF. split; [|split; [exact HF|exact init_limit]].
      unfold stored. pose proof (count_some_len _ (r_cids (s_remote s))). unfold lenN in HF. lia.
    Qed.
  End Init.

  Lemma step_agree : forall s o,
    f18_class (r_limit (s_remote s)) o = false ->
    step chk_coded no_post rnd fuel s o = step chk_fixed no_post rnd fuel s o.
  Proof.
    intros s o H. destruct o as [seq rpt id| | | | | | | | | | | | | ]; try reflexivity. cbn [step f18_class] in *.
    destruct (seq <? rpt) eqn:E; [reflexivity|]. apply N.ltb_ge in E.
    rewrite (proj2 (N.leb_le _ _) E) in H. apply N.eqb_neq in H.
    unfold recv_new_cid. rewrite (chk_agree _ _ _ H). reflexivity.
  Qed.

  (* the class is fixed by the limit, which no step changes *)
  Lemma steps_agree : forall ops s,
    no_f18 (r_limit (s_remote s)) ops = true ->
    steps chk_coded no_post rnd fuel s ops = steps chk_fixed no_post rnd fuel s ops.
  Proof.
    induction ops as [|o rest IH]; intros s Hn; [reflexivity|].
    cbn [no_f18 forallb] in Hn. apply andb_true_iff in Hn. destruct Hn as [Hn1 Hn2].
    apply negb_true_iff in Hn1. cbn [steps]. rewrite (step_agree _ _ Hn1).
    destruct (step chk_fixed no_post rnd fuel s o) as [s1 x] eqn:E1.
    fold (no_f18 (r_limit (s_remote s)) rest) in Hn2. rewrite <- (proj1 (rstep_limit _ _ _ _ _ (step_rstep _ _ _ _ _ _ _ _ E1))) in Hn2.
    rewrite (IH s1 Hn2). reflexivity.
  Qed.

  Lemma accepted_count : forall s o s' fr,
    step no_pre post_count rnd fuel s o = (s', XNewCid NAccepted fr) ->
    active (s_remote s') <= r_limit (s_remote s).
  Proof.
    intros s o s' fr Ho. apply step_rstep in Ho.
    inversion Ho as [seq rpt id r' fr' res _ Hrecv| | | | |x Hs]; subst; [|destruct Hs].
    rewrite recv_count_spec in Hrecv. destruct (seq <? r_coff (s_remote s)); [inversion Hrecv|].
    destruct (processed (s_remote s) seq rpt id) as [s3 fr3].
    destruct (N.ltb_spec (r_limit (s_remote s)) (active s3)); inversion Hrecv; subst. assumption.
  Qed.
End Sys.

(* the scenario of corpus/C14/cid/conservative.case: a compliant peer replaces an ID that one of
   our paths retired and keeps retire_prior_to at 0 *)
Definition conservative_ops : list op :=
  [OPathApply; ONewCid 1 0 1001; OPathRetire 1; ONewCid 2 0 1002; OPathApply; OPathRetire 2; ONewCid 3 0 1003].

(* F18: limit 2, NEW_CONNECTION_ID 1 and 2 with retire_prior_to 0 are both accepted *)
Definition f18_ops : list op := [ONewCid 1 0 1001; ONewCid 2 0 1002].
