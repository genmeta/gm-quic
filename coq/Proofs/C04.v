(* C04 — proofs about the handler cost models of Model/C04Handlers.v (ACK consumers, packet-number
   jump, implicit stream open) and their link to the list models they abbreviate. *)
From Coq Require Import List ZArith NArith Bool Lia.
From GQ Require Import Model.RcvdJournal Model.SentJournal Model.C04Cid Model.C04Handlers.
From GQ Require Lib.Wire Lib.FrameTypes Model.Varint Model.Frames Model.StreamCtl Model.Sid Proofs.RcvdJournal Proofs.SentJournal.
Import ListNotations.
Local Open Scope Z_scope.

Fixpoint ranges_nonneg (rs : list (Z * Z)) : Prop :=
  match rs with [] => True | (g, a) :: r => 0 <= g /\ 0 <= a /\ ranges_nonneg r end.

Definition range_ok (top : Z) (r : Z * Z) : Prop := 0 <= fst r <= snd r /\ snd r <= top.

Lemma iter_tail_covered : forall rs left t, ranges_nonneg rs -> iter_tail left rs = Some t ->
  0 <= covered t <= Z.max 0 (left - 1) /\ Forall (range_ok (left - 2)) t.
Proof.
  induction rs as [|[g a] r IH]; intros left t Hn H; cbn [iter_tail] in H.
  - inversion H; subst. cbn. split; [lia|constructor].
  - destruct Hn as (Hg & Ha & Hr).
    destruct (Z.ltb_spec left g) as [|E1]; [discriminate|].
    destruct (Z.ltb_spec (left - g) 2) as [|E2]; [discriminate|].
    destruct (Z.ltb_spec (left - g - 2) a) as [|E3]; [discriminate|].
    destruct (iter_tail (left - g - 2 - a) r) as [t'|] eqn:E; [|discriminate].
    inversion H; subst. destruct (IH _ _ Hr E) as [C F]. cbn [covered]. split; [lia|].
    constructor.
    + unfold range_ok; cbn [fst snd]. lia.
    + eapply Forall_impl; [|exact F]. intros [lo hi] [A B]. unfold range_ok in *. cbn [fst snd] in *. lia.
Qed.

Lemma ack_iter_covered : forall f rs, 0 <= a_first f -> ranges_nonneg (a_ranges f) ->
  ack_iter f = Some rs ->
  0 <= covered rs <= a_largest f + 1 /\ Forall (range_ok (a_largest f)) rs.
Proof.
  intros [l d fr rs0] rs Hf Hn H. cbn [a_first a_ranges a_largest] in *.
  assert (Hl : 0 <= l).
  { unfold ack_iter in H. cbn [a_largest a_first] in H. destruct (Z.ltb_spec l fr); [discriminate|lia]. }
  (* AckFrame::iter is the scan started two above the largest with the pair (0, first) in front *)
  rewrite (RcvdJournal.ack_iter_tail l d fr rs0 Hl) in H.
  destruct (iter_tail_covered ((0, fr) :: rs0) _ _ (conj (Z.le_refl 0) (conj Hf Hn)) H) as [C F].
  replace (l + 2 - 2) with l in F by lia. split; [lia|exact F].
Qed.

Lemma ranges_valid_iter : forall rs left,
  Frames.ack_ranges_valid left rs = match iter_tail left rs with Some _ => true | None => false end.
Proof.
  induction rs as [|[g a] r IH]; intro left; cbn [Frames.ack_ranges_valid iter_tail]; [reflexivity|].
  destruct (left <? g); [reflexivity|]. destruct (left - g <? 2); [reflexivity|].
  destruct (left - g - 2 <? a); [reflexivity|]. rewrite IH. destruct (iter_tail (left - g - 2 - a) r); reflexivity.
Qed.

Lemma ack_valid_iter : forall l d fr rs,
  Frames.ack_valid l fr rs = match ack_iter (mkack l d fr rs) with Some _ => true | None => false end.
Proof.
  intros l d fr rs. unfold Frames.ack_valid, ack_iter. cbn [a_largest a_first a_ranges].
  destruct (l <? fr); [reflexivity|]. rewrite ranges_valid_iter. destruct (iter_tail (l - fr) rs); reflexivity.
Qed.

(* complete_frame's ACK arm only delivers frames that pass the check … *)
Lemma be_body_ack_valid : forall ecn bs f rest,
  Frames.be_body (FrameTypes.TAck ecn) bs = Wire.Ok f rest ->
  match f with Frames.Ack l d fr rs _ => ack_iter (mkack l d fr rs) <> None | _ => True end.
Proof.
  intros ecn bs f rest. cbn [Frames.be_body]. unfold Wire.bind at 1.
  destruct (Frames.be_ack ecn bs) as [f' r'| | |]; try discriminate.
  unfold Frames.ack_verify. destruct f'; unfold Wire.ret; intro H; try (injection H as <- _; exact I).
  rewrite (ack_valid_iter largest delay first ranges) in H.
  destruct (ack_iter (mkack largest delay first ranges)) eqn:V; [|discriminate].
  inversion H; subst. rewrite V. discriminate.
Qed.

(* … and rejects the others with nom's Verify *)
Lemma be_body_ack_rejects : forall ecn bs l d fr rs e rest,
  Frames.be_ack ecn bs = Wire.Ok (Frames.Ack l d fr rs e) rest ->
  ack_iter (mkack l d fr rs) = None ->
  Frames.be_body (FrameTypes.TAck ecn) bs = Wire.Bad Wire.EK_Verify.
Proof.
  intros ecn bs l d fr rs e rest H N. cbn [Frames.be_body]. unfold Wire.bind at 1. rewrite H.
  cbn [Frames.ack_verify]. rewrite (ack_valid_iter l d fr rs), N. reflexivity.
Qed.

Lemma be_frame_ack_valid : forall p bs c f ecn,
  Frames.be_frame p bs = Frames.FOk c f (FrameTypes.TAck ecn) ->
  match f with Frames.Ack l d fr rs _ => ack_iter (mkack l d fr rs) <> None | _ => True end.
Proof.
  intros p bs c f ecn. unfold Frames.be_frame.
  destruct (Varint.be_varint bs) as [code rest| | |s']; try discriminate.
  destruct (Frames.ft_of_code code) as [t'|]; [|discriminate].
  destruct (negb (Frames.belongs t' p)); [discriminate|].
  destruct (Frames.be_body t' rest) as [f' r| | |s'] eqn:Eb; try discriminate.
  intro H. inversion H; subst. eapply be_body_ack_valid. exact Eb.
Qed.

Lemma tri_le : forall n, 0 <= n -> 0 <= tri n <= n * n.
Proof.
  intros n H. unfold tri. assert (0 <= n * (n - 1) <= 2 * (n * n)) by nia.
  split; [apply Z.div_pos; lia|apply Z.div_le_upper_bound; lia].
Qed.

(* n2 numbers of the range fall inside the window, where on_packet_acked scans a - off, a - off + 1, ..
   records, fewer than len each; the n3 numbers beyond it scan all len; those before it scan none *)
Lemma walk_range_bound : forall off len lo hi, 0 <= len -> lo <= hi ->
  0 <= walk_range off len lo hi <= (hi - lo + 1) * len.
Proof.
  intros off len lo hi Hl Hr. unfold walk_range.
  (* of the three ends only the bounds that max and min give are used; lia is slow to take them apart *)
  generalize (Z.max lo off), (Z.le_max_l lo off), (Z.le_max_r lo off). intros a A1 A2.
  generalize (Z.min hi (off + len - 1)), (Z.le_min_l hi (off + len - 1)), (Z.le_min_r hi (off + len - 1)). intros b B1 B2.
  generalize (Z.max lo (off + len)), (Z.le_max_l lo (off + len)), (Z.le_max_r lo (off + len)). intros c C1 C2.
  set (n2 := Z.max 0 (b - a + 1)). set (n3 := Z.max 0 (hi - c + 1)).
  assert (H : 0 <= n2 /\ 0 <= n3 /\ n2 + n3 <= hi - lo + 1 /\ (n2 = 0 \/ a - off + n2 <= len))
    by (unfold n2, n3; lia).
  clearbody n2 n3. destruct H as (Hn2 & Hn3 & Hsum & H2).
  pose proof (tri_le n2 Hn2). nia.
Qed.

Lemma walk_bound : forall off len rs top, 0 <= len -> Forall (range_ok top) rs ->
  0 <= walk off len rs <= covered rs * len.
Proof.
  intros off len rs top Hl. induction 1 as [|[lo hi] r [A B] F IH]; cbn [walk covered].
  - lia.
  - cbn [fst snd] in A. pose proof (walk_range_bound off len lo hi Hl ltac:(lia)) as Wr.
    rewrite Z.mul_add_distr_r. lia.
Qed.

Lemma resize_or_next_len : forall j now,
  s_next (resize_or j now) = s_next j /\ sj_len (resize_or j now) <= sj_len j.
Proof.
  intros j now. unfold resize_or, resize.
  destruct (resize_count now (s_recs j)) as [n f] eqn:E. pose proof (proj1 (SentJournal.resize_count_spec _ _ _ _ E)) as L.
  destruct (length (s_queue j) <? f)%nat; [unfold sj_len; lia|].
  unfold s_next, sj_len. cbn [s_off s_recs]. rewrite skipn_length. lia.
Qed.

(* the dispatcher of the fixed code: ACK validated first, comparison `>=` *)
Definition deliver := deliver_ack true true.

(* with the acknowledgement validated first, the second call of update_largest (in recv_frame) cannot
   fail: resizing the window keeps the next packet number *)
Lemma deliver_eq : forall cc_len now rj sj f,
  deliver cc_len now rj sj f =
  if s_next sj <=? a_largest f then mkao false E_PROTOCOL_VIOLATION 0 0 0 1 0 0
  else match ack_iter f with
       | None => mkao true 0 0 0 0 1 0 0
       | Some rs =>
           let sj1 := resize_or (set_la sj (a_largest f)) now in
           mkao false 0 (cc_ticks cc_len rs) (covered rs) (fed_frames rs (s_off sj1) (s_recs sj1))
                (1 + sj_len sj + cost_cc cc_len rs + cost_rj rj rs + cost_sent sj1 rs) (covered rs) (covered rs)
       end.
Proof.
  intros. unfold deliver, deliver_ack, upd_largest. fold (set_la sj (a_largest f)).
  destruct (s_next sj <=? a_largest f) eqn:E; [reflexivity|]. cbn [snd fst negb].
  destruct (ack_iter f) as [rs|]; [|reflexivity].
  destruct (resize_or_next_len (set_la sj (a_largest f)) now) as (R & _).
  change (s_next (set_la sj (a_largest f))) with (s_next sj) in R. rewrite R, E. reflexivity.
Qed.

Lemma p_c04_ack_cost : forall cc_len now rj sj f rs,
  0 <= cc_len -> 0 <= a_first f -> ranges_nonneg (a_ranges f) -> 0 <= s_off sj ->
  ack_iter f = Some rs ->
  let o := deliver cc_len now rj sj f in
  ao_panic o = false /\
  (ao_err o = 0 \/ ao_err o = E_PROTOCOL_VIOLATION /\ ao_ticks o = 0 /\ ao_collected o = 0) /\
  ao_cost o <= s_next sj * (sj_len sj + 4) + 2 * (sj_len sj + cc_len + r_len rj) + zlen (r_incl rj) + 6.
Proof.
  intros cc_len now rj sj f rs Hcc Hf Hn Hoff Hit. cbn zeta. rewrite deliver_eq, Hit.
  assert (HL : 0 <= sj_len sj) by (unfold sj_len; lia).
  assert (HR : 0 <= r_len rj) by (unfold r_len; lia).
  assert (HI : 0 <= zlen (r_incl rj)) by (unfold zlen; lia).
  assert (HN : 0 <= s_next sj) by (unfold s_next; lia).
  destruct (Z.leb_spec (s_next sj) (a_largest f)) as [Hge|Hlt];
    cbn [ao_panic ao_err ao_ticks ao_collected ao_cost].
  { split; [reflexivity|]. split; [right; auto|].
    assert (0 <= s_next sj * (sj_len sj + 4)) by (apply Z.mul_nonneg_nonneg; lia). lia. }
  destruct (ack_iter_covered f rs Hf Hn Hit) as [[C0 C1] F].
  set (sj1 := resize_or (set_la sj (a_largest f)) now).
  destruct (resize_or_next_len (set_la sj (a_largest f)) now) as (_ & R2). fold sj1 in R2.
  change (sj_len (set_la sj (a_largest f))) with (sj_len sj) in R2.
  assert (L0 : 0 <= sj_len sj1) by (unfold sj_len; lia).
  assert (Tk : 0 <= cc_ticks cc_len rs <= covered rs) by (unfold cc_ticks; destruct (cc_len =? 0); lia).
  destruct (walk_bound (s_off sj1) (sj_len sj1) rs (a_largest f) L0 F) as [W0 W1].
  split; [reflexivity|]. split; [left; reflexivity|].
  unfold cost_cc, cost_rj, cost_sent. unfold zlen in *.
  assert (M1 : covered rs * sj_len sj1 <= s_next sj * sj_len sj) by (apply Z.mul_le_mono_nonneg; lia).
  rewrite Z.mul_add_distr_l. lia.
Qed.

Definition sj5 : sjournal := send_n 5 sj_new 0.

(* where F7's witness starts: without the parser check the frame `02 03 00 00 0a` reaches the consumers
   and AckFrame::iter underflows *)
Definition after_5_sent (cfg : list Z) : hst := fst (h_step (h_init cfg) 1%N [0; 0; 0; 5]).

Lemma set_nth_length {A} : forall n (x : A) l, length (set_nth n x l) = length l.
Proof. induction n; destruct l; cbn; auto. Qed.

Lemma p_c04_pn_cells : forall j now pn el pto j',
  on_rcvd_pn j now pn el pto = Some j' ->
  r_len j' = r_len j + pn_cells j pn /\ r_off j' = r_off j.
Proof.
  intros j now pn el pto j'. unfold on_rcvd_pn, pn_cells.
  destruct ((r_off j <=? pn) && (pn <? r_next j)) eqn:C.
  - intro H; inversion H; subst. unfold r_len; cbn [r_recs r_off]. rewrite set_nth_length. lia.
  - destruct (LIMIT <? pn); [discriminate|].
    destruct (pn <? r_off j) eqn:E.
    + intro H; inversion H; subst. unfold r_len; cbn [r_recs r_off]. lia.
    + apply Z.ltb_ge in E. intro H; inversion H; subst. unfold r_len, r_next, r_len in *; cbn [r_recs r_off].
      rewrite !app_length, repeat_length. cbn [length].
      apply andb_false_iff in C. destruct C as [C|C]; [apply Z.leb_gt in C; lia|apply Z.ltb_ge in C].
      unfold r_next, r_len in C. lia.
Qed.

(* the concrete witness replayed on the implementation: after packets 0 and 1 a 4-byte number
   65536 is accepted by decode_pn and costs 65535 new records *)
Definition rj01 : rjournal :=
  match on_rcvd_pn (rj_new (Some 25)) 0 0 true 100 with
  | Some j => match on_rcvd_pn j 0 1 true 100 with Some j' => j' | None => j end
  | None => rj_new None
  end.

Lemma range_nat_length : forall n start, length (Sid.range_nat start n) = n.
Proof. induction n; intro; cbn; auto. Qed.

Lemma p_c04_stream_limit : forall d sid off len fin,
  StreamCtl.d_closed d = false ->
  Sid.role_eqb (Sid.sid_role sid) (StreamCtl.d_role d) = false ->
  (Sid.pget (Sid.r_max (StreamCtl.d_r d)) (Sid.sid_dir sid) < Sid.sid_idx sid)%N ->
  hd 0 (snd (StreamCtl.ds_step StreamCtl.fixed d (StreamCtl.OStream sid off len fin))) = E_STREAM_LIMIT /\
  StreamCtl.d_closed (fst (StreamCtl.ds_step StreamCtl.fixed d (StreamCtl.OStream sid off len fin))) = true.
Proof.
  intros d sid off len fin Hc Hr Hl. unfold StreamCtl.ds_step. rewrite Hc.
  unfold StreamCtl.ds_recv_stream, StreamCtl.ds_check_sid. rewrite Hr. cbn [negb].
  unfold StreamCtl.ds_try_accept, Sid.try_accept_sid, Sid.over_limit.
  apply N.ltb_lt in Hl. rewrite Hl. cbn. auto.
Qed.

Lemma p_c04_max_streams_limit : forall u bs f rest,
  Frames.be_body (FrameTypes.TMaxStreams u) bs = Wire.Ok f rest ->
  match f with Frames.MaxStreams _ v => v <= Frames.MAX_STREAMS_LIMIT | _ => True end.
Proof.
  intros u bs f rest. cbn [Frames.be_body]. unfold Wire.bind.
  destruct (Varint.be_varint bs) as [v r| | |]; try discriminate.
  destruct (Frames.MAX_STREAMS_LIMIT <? v) eqn:E; [discriminate|].
  unfold Wire.ret. intro H; inversion H; subst. now apply Z.ltb_ge in E.
Qed.

(* `ack_frame.iter().flat_map(|r| r.rev())`: every packet number of every range, largest first *)
Fixpoint expand (rs : list (Z * Z)) : list Z :=
  match rs with
  | [] => []
  | (lo, hi) :: r => down_from hi (Z.to_nat (hi - lo + 1)) ++ expand r
  end.

Lemma down_from_length : forall n hi, length (down_from hi n) = n.
Proof. induction n; intro; cbn; auto. Qed.

(* the state transformer expands only the part of the ranges inside the tracked window *)
Lemma window_pns_bound : forall off next rs, off <= next ->
  Z.of_nat (length (window_pns off next rs)) <= Z.of_nat (length rs) * (next - off).
Proof.
  intros off next rs Hon. induction rs as [|[lo hi] r IH]; cbn [window_pns length]; [lia|].
  rewrite app_length, down_from_length. lia.
Qed.

Lemma window_pns_length : forall off next rs top, off <= next -> Forall (range_ok top) rs ->
  Z.of_nat (length (window_pns off next rs)) <= Z.of_nat (length rs) * (next - off).
Proof. intros off next rs top Hon _. exact (window_pns_bound off next rs Hon). Qed.
