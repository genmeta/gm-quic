(* Lemmas for c19_offered, which holds for any list of sources; the regenerated table of Components::packages enters only
   through [sources]. *)
From Coq Require Import List NArith ZArith.
From GQ Require Import Lib.Base Lib.VarintN Model.Datagram Model.DatagramSources Proofs.Datagram.
Import ListNotations.
Local Open Scope N_scope.

Lemma load_head s d q rem :
  wq s = Some (d :: q) -> lenN d < VARINT_MAX -> lenN d < rem ->
  exists wl npad, load s rem = (mkdg (peer_max s) (local_max s) (Some q) (rq s), LFrame wl npad d).
Proof.
  intros Hq Hd Hr. unfold load. rewrite Hq, (load_choice_eq _ _ Hd), (proj2 (N.leb_gt rem (lenN d)) Hr).
  destruct (_ <=? _); eauto.
Qed.

Lemma not_offered_nothing : forall srcs s rem,
  ~ In SrcDatagram srcs -> assemble_sources srcs s rem = (s, []).
Proof.
  induction srcs as [| x tl IH]; intros s rem Hn; [reflexivity |].
  destruct x; cbn [assemble_sources]; try (apply IH; intro H; apply Hn; right; exact H).
  exfalso; apply Hn; left; reflexivity.
Qed.

Lemma offered_In : datagram_offered = true <-> In SrcDatagram (sources SpOneRtt).
Proof.
  unfold datagram_offered. rewrite existsb_exists. split.
  - intros (x & Hin & Hx). destruct x; try discriminate. exact Hin.
  - intro H. exists SrcDatagram. split; [exact H | reflexivity].
Qed.
