(* Two method calls of the AntiAmplifier racing on two threads, one atomic operation at a time (`race` of
   Model/AntiAmp.v, stream op RACE): [composite] is what a call does running alone; every race finishes within
   the fuel; two calls that touch only the credit (on_rcvd, on_sent) are linearizable for EVERY schedule - in
   particular no debit and no deposit is lost, the credit afterwards is what the two calls produce one after the
   other. *)
From Coq Require Import List NArith Bool Lia.
From GQ Require Import Model.AntiAmp Proofs.AntiAmp.
Import ListNotations.
Local Open Scope N_scope.

Definition composite (a : aa) (c : mcall) : aa :=
  match c with
  | CRcvd n => on_rcvd a n
  | CBalance => fst (balance a)
  | CSent n => on_sent a n
  | CGrant => grant a
  | CAbort => abort a
  | CNop => a
  end.

Definition rem (p : mpc) : nat :=
  match p with PStart _ => 3 | PBalCredit => 2 | PBalReload | PRcvdAdd _ | PSentDebit _ => 1 | PDone _ => 0 end.

Lemma mstep_rem a p : pdone p = false -> (rem (snd (mstep a p)) < rem p)%nat.
Proof.
  destruct p as [c | n | | | n | r]; cbn [pdone]; intro H; try discriminate; cbn [mstep].
  - destruct c; cbn [rem]; repeat destruct (_ =? _); cbn [snd rem]; lia.
  - cbn [snd rem]. lia.
  - destruct (credit a =? 0); cbn [snd rem]; lia.
  - destruct (st a =? 0); cbn [snd rem]; lia.
  - cbn [snd rem]. lia.
Qed.

Lemma mstart_rem c : (rem (mstart c) <= 3)%nat.
Proof. destruct c; cbn; lia. Qed.

Lemma race_S f a pa pb na nb sched : pdone pa && pdone pb = false ->
  (pdone pb = false /\ race (S f) a pa pb na nb sched =
     let '(a', pb') := mstep a pb in race f a' pa pb' na (nb + 1) (tl sched)) \/
  (pdone pa = false /\ race (S f) a pa pb na nb sched =
     let '(a', pa') := mstep a pa in race f a' pa' pb (na + 1) nb (tl sched)).
Proof.
  intro H. cbn [race]. rewrite H.
  destruct (pdone pa), (pdone pb); [discriminate | | |];
    destruct (match sched with b :: _ => b | [] => false end); cbn [negb]; auto.
Qed.

Section RaceInv.
  Variable P : aa -> mpc -> mpc -> Prop.
  Hypothesis HA : forall a pa pb, P a pa pb -> pdone pa = false -> let '(a', pa') := mstep a pa in P a' pa' pb.
  Hypothesis HB : forall a pa pb, P a pa pb -> pdone pb = false -> let '(a', pb') := mstep a pb in P a' pa pb'.

  Lemma race_inv : forall fuel a pa pb na nb sched, P a pa pb -> (rem pa + rem pb < fuel)%nat ->
    let '(a', pa', pb', _, _) := race fuel a pa pb na nb sched in
    P a' pa' pb' /\ pdone pa' = true /\ pdone pb' = true.
  Proof.
    induction fuel as [| f IH]; intros a pa pb na nb sched HP Hf; [lia |].
    destruct (pdone pa && pdone pb) eqn:D.
    - cbn [race]. rewrite D. apply andb_prop in D. split; [exact HP | exact D].
    - destruct (race_S f a pa pb na nb sched D) as [[Db ->] | [Da ->]].
      + specialize (HB a pa pb HP Db). pose proof (mstep_rem a pb Db) as Hr.
        destruct (mstep a pb) as [a' pb']. apply IH; [exact HB | cbn [snd] in Hr; lia].
      + specialize (HA a pa pb HP Da). pose proof (mstep_rem a pa Da) as Hr.
        destruct (mstep a pa) as [a' pa']. apply IH; [exact HA | cbn [snd] in Hr; lia].
  Qed.

  Lemma race_calls_inv a ca cb sched : P a (mstart ca) (mstart cb) ->
    let '(a', pa', pb', _, _) := race_calls a ca cb sched in
    P a' pa' pb' /\ pdone pa' = true /\ pdone pb' = true.
  Proof.
    intro HP. apply race_inv; [exact HP |].
    pose proof (mstart_rem ca). pose proof (mstart_rem cb). unfold RACE_FUEL. lia.
  Qed.
End RaceInv.

(* Calls that touch only the credit: every schedule is one of the two sequential orders.
   on_rcvd and on_sent load `state`, which neither of them writes, and then perform ONE read-modify-write of `credit`.
   [todo p] is what is left of such a call standing at p, as a function of the shared state.  A step of one call
   leaves its own remainder the same; seen from the other call it is a load, which commutes with that call's
   remainder, or the read-modify-write, which fixes the order of the two.  So the set of the two sequential outcomes
   of the remainders never grows, and when both calls have returned it holds the state reached. *)
Definition credit_call (c : mcall) : Prop := match c with CRcvd _ | CSent _ | CNop => True | _ => False end.

Definition credit_pc (p : mpc) : Prop :=
  match p with PStart (CRcvd _ | CSent _) | PRcvdAdd _ | PSentDebit _ | PDone _ => True | _ => False end.

Definition todo (p : mpc) (a : aa) : aa :=
  match p with
  | PStart c => composite a c
  | PRcvdAdd n => wake_credit (fetch_add a (n * FACTOR mod W))
  | PSentDebit n => debit a n
  | _ => a
  end.

Lemma mstart_credit_pc c : credit_call c -> credit_pc (mstart c).
Proof. destruct c; intros []; exact I. Qed.

Lemma todo_mstart c a : todo (mstart c) a = composite a c.
Proof. destruct c; reflexivity. Qed.

Lemma todo_done p a : pdone p = true -> todo p a = a.
Proof. destruct p; intro; (discriminate || reflexivity). Qed.

Lemma todo_st p a : credit_pc p -> st (todo p a) = st a.
Proof.
  destruct p as [[] | | | | |]; intros []; cbn [todo composite];
    [apply on_rcvd_st | apply on_sent_st | rewrite wake_credit_st | |]; reflexivity.
Qed.

Lemma todo_step (T : aa -> Prop) p q a : credit_pc p -> credit_pc q -> pdone p = false ->
  T (todo q (todo p a)) -> T (todo p (todo q a)) ->
  let '(a', p') := mstep a p in credit_pc p' /\ T (todo q (todo p' a')) /\ T (todo p' (todo q a')).
Proof.
  intros Hp Hq Hd T1 T2. pose proof (todo_st q a Hq) as Hs.
  destruct p as [[] | | | | |]; try contradiction; try discriminate; cbn [mstep todo composite] in *.
  - unfold on_rcvd in *. rewrite Hs in T2. destruct (st a =? 0); cbn [todo credit_pc]; auto.
  - unfold on_sent in *. rewrite Hs in T2. destruct (st a =? 0); cbn [todo credit_pc]; auto.
  - cbn [credit_pc]. auto.
  - cbn [credit_pc]. auto.
Qed.

Theorem race_credit_calls a ca cb sched : credit_call ca -> credit_call cb ->
  let '(a', _, _, _, _) := race_calls a ca cb sched in
  a' = composite (composite a ca) cb \/ a' = composite (composite a cb) ca.
Proof.
  intros Ha Hb.
  set (T := fun x => x = composite (composite a ca) cb \/ x = composite (composite a cb) ca).
  set (P := fun x pa pb => credit_pc pa /\ credit_pc pb /\ T (todo pb (todo pa x)) /\ T (todo pa (todo pb x))).
  assert (HA : forall x pa pb, P x pa pb -> pdone pa = false -> let '(x', pa') := mstep x pa in P x' pa' pb).
  { intros x pa pb (Cpa & Cpb & T1 & T2) Da. pose proof (todo_step T pa pb x Cpa Cpb Da T1 T2) as S.
    destruct (mstep x pa). unfold P. tauto. }
  assert (HB : forall x pa pb, P x pa pb -> pdone pb = false -> let '(x', pb') := mstep x pb in P x' pa pb').
  { intros x pa pb (Cpa & Cpb & T1 & T2) Db. pose proof (todo_step T pb pa x Cpb Cpa Db T2 T1) as S.
    destruct (mstep x pb). unfold P. tauto. }
  pose proof (race_calls_inv P HA HB a ca cb sched) as H.
  destruct (race_calls a ca cb sched) as [[[[a' pa] pb] na] nb].
  destruct H as ((_ & _ & HT & _) & Da & Db).
  - split; [apply mstart_credit_pc, Ha |]. split; [apply mstart_credit_pc, Hb |].
    rewrite !todo_mstart. split; [left | right]; reflexivity.
  - rewrite !todo_done in HT by assumption. exact HT.
Qed.
