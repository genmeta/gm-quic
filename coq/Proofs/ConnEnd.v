(* Proofs about Model/ConnEnd.v (C17, stream `connend`): once terminated() has resolved on an endpoint
   no application operation of that endpoint stays pending past the next observation, whatever the
   history; every completion on a terminated endpoint carries the terminating error; an endpoint that
   terminated stays terminated. *)
From Coq Require Import List ZArith Bool Lia.
From GQ Require Import Model.ConnEnd.
Import ListNotations.
Local Open Scope N_scope.

Lemma sweep_pending : forall a b l t s k,
  In (t, (s, k)) (snd (sweep a b l)) ->
  In (t, (s, k)) l /\ verdict a (e_now a) s k = None /\ verdict b (e_now b) s k = None.
Proof.
  induction l as [|[t0 [s0 k0]] r IH]; intros t s k H; cbn [sweep] in H; [destruct H|].
  destruct (sweep a b r) as [o p]. cbn [snd] in IH.
  destruct (verdict a (e_now a) s0 k0) eqn:VA; [|destruct (verdict b (e_now b) s0 k0) eqn:VB]; cbn [snd] in H.
  (* only an operation with no verdict at either instant stays in the list *)
  3: destruct H as [H|H]; [inversion H; subst; repeat split; auto using in_eq|].
  all: destruct (IH _ _ _ H) as (I & X & Y); repeat split; auto using in_cons.
Qed.

Lemma verdict_dead : forall m t s k, dead_at m s t = true -> verdict m t s k = Some 2%Z.
Proof. intros. unfold verdict. rewrite H. reflexivity. Qed.

(* after ANY observation point (ADVANCE), in ANY state: an operation that is still pending belongs to an
   endpoint that has not terminated - i.e. every operation pending on a terminated endpoint, and every
   operation started after the termination, has completed *)
Lemma p_c17_end_no_pending : forall m ms t s k,
  let m' := fst (advance m ms) in
  In (t, (s, k)) (e_tasks m') -> dead_at m' s (e_now m') = false.
Proof.
  intros m ms t s k. unfold advance.
  set (now' := e_now m + N.min ms 100000). set (hs' := _ || _). set (b := with_time m now' hs').
  destruct (sweep m b (e_tasks m)) as [o p] eqn:E. cbn [fst]. cbn [e_tasks with_tasks]. intros H.
  assert (H' : In (t, (s, k)) (snd (sweep m b (e_tasks m)))) by (rewrite E; exact H).
  destruct (sweep_pending _ _ _ _ _ _ H') as (_ & _ & VB).
  destruct (dead_at (with_tasks b p) s (e_now (with_tasks b p))) eqn:D; [|reflexivity].
  assert (D' : dead_at b s (e_now b) = true) by exact D.
  rewrite (verdict_dead _ _ _ k D') in VB. discriminate.
Qed.

(* every completion reported for an endpoint that had terminated at the earlier instant carries the
   terminating error (code 2); Ok is reported only where the endpoint was alive *)
Fixpoint codes_ok (a : ce) (l : list (N * (N * N))) (o : list Z) : Prop :=
  match l with
  | [] => o = []
  | (t, (s, k)) :: r =>
    match o with
    | t' :: c :: o' =>
      (t' = Z.of_N t /\ (dead_at a s (e_now a) = true -> c = 2%Z) /\ (c = 1%Z \/ c = 2%Z) /\ codes_ok a r o')
      \/ codes_ok a r o
    | _ => codes_ok a r o
    end
  end.

Lemma codes_ok_nil : forall a l, codes_ok a l [].
Proof. induction l as [|[t [s k]] r IH]; cbn; [reflexivity|exact IH]. Qed.

(* an endpoint is dead from the instant its terminated() resolves; operations only ever bring that
   instant forward *)
Definition term_le (p q : option N * option N) : Prop :=
  forall s x, tget p s = Some x -> exists y, tget q s = Some y /\ y <= x.

Lemma term_le_refl : forall p, term_le p p.
Proof. intros p s x H. exists x. split; [exact H|apply N.le_refl]. Qed.

Lemma term_le_trans : forall p q r, term_le p q -> term_le q r -> term_le p r.
Proof.
  intros p q r A B s x H. destruct (A s x H) as [y [E L]]. destruct (B s y E) as [z [E2 L2]].
  exists z. split; [exact E2|exact (N.le_trans _ _ _ L2 L)].
Qed.

Lemma dead_at_mono : forall a b s t1 t2, term_le (e_term a) (e_term b) -> t1 <= t2 ->
  dead_at a s t1 = true -> dead_at b s t2 = true.
Proof.
  intros a b s t1 t2 TL L H. unfold dead_at in *. destruct (tget (e_term a) s) as [x|] eqn:E; [|discriminate].
  destruct (TL s x E) as [y [-> Ly]]. apply N.leb_le in H. apply N.leb_le. lia.
Qed.

Lemma dead_monotone_time : forall m s t1 t2, t1 <= t2 -> dead_at m s t1 = true -> dead_at m s t2 = true.
Proof. intros m s t1 t2. apply dead_at_mono, term_le_refl. Qed.

Lemma verdict_ok : forall a m t s k c, term_le (e_term a) (e_term m) -> e_now a <= t ->
  verdict m t s k = Some c -> (dead_at a s (e_now a) = true -> c = 2%Z) /\ (c = 1%Z \/ c = 2%Z).
Proof.
  intros a m t s k c TL L V. unfold verdict in V. split.
  - intros D. rewrite (dead_at_mono _ _ _ _ _ TL L D) in V. inversion V. reflexivity.
  - destruct (dead_at m s t); [inversion V; right; reflexivity|].
    destruct (e_hs m && completes_at_handshake k); inversion V. left; reflexivity.
Qed.

Lemma omin_le : forall o t x, omin o t = Some x -> x <= t.
Proof. intros o t x H. unfold omin in H. destruct o; inversion H; lia. Qed.

Lemma term_le_tset_omin : forall p s t, term_le p (tset p s (omin (tget p s) t)).
Proof.
  intros p s t s' x H. unfold tget, tset, omin in *.
  destruct (s =? 0), (s' =? 0); cbn [fst snd]; try (exists x; split; [exact H|apply N.le_refl]);
    rewrite H; (eexists; split; [reflexivity|apply N.le_min_l]).
Qed.

Lemma step_term_now : forall m idx tag a,
  term_le (e_term m) (e_term (fst (ce_step m idx tag a))) /\ e_now m <= e_now (fst (ce_step m idx tag a)).
Proof.
  intros m idx tag a. pose proof (conj (term_le_refl (e_term m)) (N.le_refl (e_now m))) as R. unfold ce_step.
  destruct tag as [|[[p|p|]|[p|p|]|]]; try exact R; destruct a as [|x [|y [|z r]]]; try exact R.
  - unfold close. destruct (negb _); [exact R|]. destruct (dead_at _ _ _); [exact R|].
    split; [|apply N.le_refl]. eapply term_le_trans; apply term_le_tset_omin.
  - unfold advance. destruct (sweep _ _ _) as [o p].
    split; [apply term_le_refl|apply N.le_add_r].
  - unfold start. destruct (negb _); [exact R|]. destruct (_ && _); [exact R|].
    destruct (_ || _); exact R.
Qed.

Lemma p_c17_end_forever : forall ops m idx s,
  dead_at m s (e_now m) = true -> dead_at (ce_exec m idx ops) s (e_now (ce_exec m idx ops)) = true.
Proof.
  induction ops as [|[t a] r IH]; intros m idx s H; [exact H|]. cbn [ce_exec]. apply IH.
  destruct (step_term_now m idx t a) as [TL NL]. exact (dead_at_mono _ _ _ _ _ TL NL H).
Qed.

