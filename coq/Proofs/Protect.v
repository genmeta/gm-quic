(* C06: packet protection round trip and rejection of modified packets (layout proved, crypto assumed).
   Header protection is one operation on bytes, [hp_apply], the same in both directions, studied on a packet split into
   first byte, rest of the header, packet-number bytes and what follows.  [recv_data] is the receive path on a data
   packet.  The round trip rests on what the writer produces ([build_spec], [first_byte_facts]) and on be_packet finding
   it again in the protected bytes ([build_parses]); the tamper statements on [recv1_unforged]. *)
From Coq Require Import List ZArith Bool Lia.
From GQ Require Import Model.Protect Proofs.Wire Proofs.Frames Proofs.Packets.
Import ListNotations.
Local Open Scope Z_scope.

Lemma zlen_firstn {A} (l : list A) n : 0 <= n <= zlen l -> zlen (firstn (Z.to_nat n) l) = n.
Proof. intro H. unfold zlen in *. rewrite firstn_length. lia. Qed.

Lemma firstn_exact {A} (a r : list A) n : zlen a = n -> firstn (Z.to_nat n) (a ++ r) = a.
Proof. intros <-. apply firstn_zlen_app. Qed.
Lemma skipn_exact {A} (a r : list A) n : zlen a = n -> skipn (Z.to_nat n) (a ++ r) = r.
Proof. intros <-. apply skipn_zlen_app. Qed.

Lemma zlen_xor_prefix l m : zlen (xor_prefix l m) = zlen l.
Proof. unfold zlen. f_equal. revert m. induction l as [|x l IH]; intros [|y m]; cbn; auto. Qed.

Lemma xor_prefix_invol l m : xor_prefix (xor_prefix l m) m = l.
Proof.
  revert m. induction l as [|x l IH]; intros [|y m]; cbn; auto.
  rewrite IH, Z.lxor_assoc, Z.lxor_nilpotent, Z.lxor_0_r. reflexivity.
Qed.

Lemma packet_split (pkt : list Z) off n : 1 <= off -> 0 <= n -> off + n <= zlen pkt ->
  exists H X R, pkt = hd 0 pkt :: H ++ X ++ R /\ zlen H = off - 1 /\ zlen X = n.
Proof.
  intros Ho Hn Hl. destruct pkt as [|b t]; [cbn in Hl; lia|]. rewrite zlen_cons in Hl.
  exists (firstn (Z.to_nat (off - 1)) t), (firstn (Z.to_nat n) (skipn (Z.to_nat (off - 1)) t)),
         (skipn (Z.to_nat n) (skipn (Z.to_nat (off - 1)) t)).
  rewrite !firstn_skipn. split; [reflexivity|].
  split; apply zlen_firstn; rewrite ?skipn_zlen_le; lia.
Qed.

Lemma skipn_packet {A} (b : A) H T off : 1 <= off -> zlen H = off - 1 -> skipn (Z.to_nat off) (b :: H ++ T) = T.
Proof.
  intros Ho HH. replace (Z.to_nat off) with (S (Z.to_nat (off - 1))) by lia. cbn [skipn]. apply skipn_exact, HH.
Qed.

Lemma sample_indep (x y r : list Z) : zlen x = zlen y -> zlen x <= 4 ->
  sub (x ++ r) 4 SAMPLE_LEN = sub (y ++ r) 4 SAMPLE_LEN.
Proof.
  intros He Hl. unfold sub. f_equal. rewrite !skipn_app.
  rewrite (skipn_all2 x), (skipn_all2 y) by (unfold zlen in *; lia).
  cbn [app]. f_equal. unfold zlen in He. lia.
Qed.

Lemma div_pow2_masked b m c k : 0 <= k -> 0 <= c < 2 ^ k -> Z.lxor b (Z.land m c) / 2 ^ k = b / 2 ^ k.
Proof.
  intros Hk Hc. rewrite <- !Z.shiftr_div_pow2 by lia. apply Z.bits_inj'. intros i Hi.
  rewrite !Z.shiftr_spec, Z.lxor_spec, Z.land_spec by lia.
  rewrite <- (Z.mod_small c (2 ^ k)), Z.mod_pow2_bits_high by lia. rewrite andb_false_r. apply xorb_false_r.
Qed.

Lemma bit_set_div b b' k j : 0 <= k <= j -> b' / 2 ^ k = b / 2 ^ k -> bit_set b' (2 ^ j) = bit_set b (2 ^ j).
Proof.
  intros Hk E. unfold bit_set. replace j with (k + (j - k)) by lia.
  rewrite Z.pow_add_r, <- !Z.div_div, E by lia. reflexivity.
Qed.

(* the mask covers the protected bits only: the bits above them stay, among them the form bit, which decides which
   bits are protected *)
Lemma div_masked b m : Z.lxor b (Z.land m (hp_bits b)) / (hp_bits b + 1) = b / (hp_bits b + 1).
Proof.
  unfold hp_bits. destruct (bit_set b 128); [apply (div_pow2_masked b m 15 4) | apply (div_pow2_masked b m 31 5)]; lia.
Qed.

Lemma form_masked b m : bit_set (Z.lxor b (Z.land m (hp_bits b))) 128 = bit_set b 128.
Proof.
  apply (bit_set_div _ _ 5 7); [lia|]. apply div_pow2_masked; [lia|]. unfold hp_bits. destruct (bit_set b 128); lia.
Qed.

Lemma unmask_mask b m :
  Z.lxor (Z.lxor b (Z.land m (hp_bits b))) (Z.land m (hp_bits (Z.lxor b (Z.land m (hp_bits b))))) = b.
Proof.
  unfold hp_bits at 2. rewrite form_masked. fold (hp_bits b). rewrite Z.lxor_assoc, Z.lxor_nilpotent. apply Z.lxor_0_r.
Qed.

Lemma pn_len_range b : 1 <= Z.land b 3 + 1 <= 4.
Proof. change 3 with (Z.ones 2). rewrite Z.land_ones by lia. pose proof (Z.mod_pos_bound b (2 ^ 2)). lia. Qed.

(* what protect_header and remove_protection do to the bytes, given the mask m and the pn length n *)
Definition hp_apply (m pkt : list Z) (off n : Z) : list Z :=
  let payload := skipn (Z.to_nat off) pkt in
  Z.lxor (hd 0 pkt) (Z.land (hd 0 m) (hp_bits (hd 0 pkt)))
    :: sub pkt 1 (off - 1) ++ xor_prefix (sub payload 0 n) (tl m) ++ skipn (Z.to_nat n) payload.

Definition sample (pkt : list Z) (off : Z) : list Z := sub (skipn (Z.to_nat off) pkt) 4 SAMPLE_LEN.

Lemma hp_apply_split m b H X R off n : 1 <= off -> zlen H = off - 1 -> zlen X = n ->
  hp_apply m (b :: H ++ X ++ R) off n = Z.lxor b (Z.land (hd 0 m) (hp_bits b)) :: H ++ xor_prefix X (tl m) ++ R.
Proof.
  intros Ho HH HX. unfold hp_apply. rewrite (skipn_packet _ _ _ _ Ho HH). cbn [hd]. f_equal.
  unfold sub. change (Z.to_nat 1) with 1%nat. change (Z.to_nat 0) with 0%nat. cbn [skipn].
  rewrite (firstn_exact _ _ _ HH), (firstn_exact _ _ _ HX), (skipn_exact _ _ _ HX). reflexivity.
Qed.

Lemma hp_apply_invol m pkt off n : 1 <= off -> 0 <= n <= 4 -> off + n <= zlen pkt ->
  let P := hp_apply m pkt off n in
  hp_apply m P off n = pkt /\ zlen P = zlen pkt /\ sample P off = sample pkt off /\
  hd 0 P = Z.lxor (hd 0 pkt) (Z.land (hd 0 m) (hp_bits (hd 0 pkt))) /\
  skipn (Z.to_nat (off + n)) P = skipn (Z.to_nat (off + n)) pkt /\
  sub (skipn (Z.to_nat off) P) 0 n = xor_prefix (sub (skipn (Z.to_nat off) pkt) 0 n) (tl m).
Proof.
  intros Ho Hn Hl. destruct (packet_split pkt off n Ho ltac:(lia) Hl) as (H & X & R & E & HH & HX).
  generalize dependent (hd 0 pkt). intros b ->. cbv zeta. rewrite hp_apply_split by assumption.
  assert (HX' : zlen (xor_prefix X (tl m)) = n) by (rewrite zlen_xor_prefix; exact HX).
  rewrite hp_apply_split, unmask_mask, xor_prefix_invol by assumption.
  split; [reflexivity|]. split; [rewrite !zlen_cons, !zlen_app, HX', HX; reflexivity|].
  unfold sample. rewrite !(skipn_packet _ _ _ _ Ho HH).
  split; [apply sample_indep; lia|]. split; [reflexivity|]. split.
  - rewrite !(app_assoc H), !skipn_packet by (rewrite ?zlen_app; lia). reflexivity.
  - unfold sub. change (Z.to_nat 0) with 0%nat. cbn [skipn]. now rewrite !firstn_exact.
Qed.

(* both directions need 4 + 16 bytes from the pn offset on, to sample from *)
Lemma sample_room (pkt : list Z) off : 0 <= off <= zlen pkt ->
  (zlen (skipn (Z.to_nat off) pkt) <? 4 + SAMPLE_LEN) = (zlen pkt <? off + 20).
Proof.
  intro H. rewrite skipn_zlen_le by exact H. unfold SAMPLE_LEN.
  destruct (Z.ltb_spec (zlen pkt - off) (4 + 16)), (Z.ltb_spec (zlen pkt) (off + 20)); lia.
Qed.

Section HP.
  Variable hkey : Type.
  Variable mask : hkey -> list Z -> list Z.

  Lemma hp_protect_eq hk pkt off pnlen : hp_protect hkey mask hk pkt off pnlen =
    if zlen (skipn (Z.to_nat off) pkt) <? 4 + SAMPLE_LEN then None
    else Some (hp_apply (mask hk (sample pkt off)) pkt off (Z.min pnlen (Z.land (hd 0 pkt) 3 + 1))).
  Proof. reflexivity. Qed.

  Lemma hp_protect_some hk pkt off pnlen P : hp_protect hkey mask hk pkt off pnlen = Some P ->
    P = hp_apply (mask hk (sample pkt off)) pkt off (Z.min pnlen (Z.land (hd 0 pkt) 3 + 1)).
  Proof. rewrite hp_protect_eq. destruct (_ <? _); [discriminate|]. intro H. injection H as <-. reflexivity. Qed.

  Lemma unprotect_eq hk pkt off : unprotect hkey mask hk pkt off =
    if zlen (skipn (Z.to_nat off) pkt) <? 4 + SAMPLE_LEN then UPanic
    else let m := mask hk (sample pkt off) in
         let n := Z.land (Z.lxor (hd 0 pkt) (Z.land (hd 0 m) (hp_bits (hd 0 pkt)))) 3 + 1 in
         UOk (hp_apply m pkt off n) n
             (match get_be (Z.to_nat n) 0 (xor_prefix (sub (skipn (Z.to_nat off) pkt) 0 n) (tl m)) with
              | Some (v, _) => v | None => 0 end).
  Proof. reflexivity. Qed.

  Lemma unprotect_form hk pkt off U n v :
    unprotect hkey mask hk pkt off = UOk U n v -> bit_set (hd 0 U) 128 = bit_set (hd 0 pkt) 128.
  Proof.
    rewrite unprotect_eq. destruct (_ <? _); [discriminate|]. intro H. injection H as <- _ _. apply form_masked.
  Qed.

  Lemma unprotect_inv hk pkt off U n v :
    unprotect hkey mask hk pkt off = UOk U n v -> 1 <= off <= zlen pkt ->
    hp_protect hkey mask hk U off n = Some pkt /\ zlen U = zlen pkt /\ 1 <= n <= 4 /\
    n = Z.land (hd 0 U) 3 + 1 /\
    skipn (Z.to_nat (off + n)) U = skipn (Z.to_nat (off + n)) pkt /\ off + 20 <= zlen pkt.
  Proof.
    rewrite unprotect_eq. intros H Hoff. rewrite sample_room in H by lia.
    destruct (Z.ltb_spec (zlen pkt) (off + 20)) as [|Hlen]; [discriminate|].
    cbv zeta in H. set (m := mask hk (sample pkt off)) in H. injection H as HU Hn _. rewrite Hn in HU.
    pose proof (pn_len_range (Z.lxor (hd 0 pkt) (Z.land (hd 0 m) (hp_bits (hd 0 pkt))))) as Hn4. rewrite Hn in Hn4.
    destruct (hp_apply_invol m pkt off n ltac:(lia) ltac:(lia) ltac:(lia)) as (Hinv & HlU & Hs & Hhd & Hsk & _).
    rewrite HU in *. rewrite Hhd. repeat split; try assumption; try lia.
    rewrite hp_protect_eq, sample_room, HlU, Hs by lia. fold m. rewrite Hhd, Hn, Z.min_id, Hinv.
    destruct (Z.ltb_spec (zlen pkt) (off + 20)); [lia | reflexivity].
  Qed.

  Lemma protect_unprotect hk U off n P :
    hp_protect hkey mask hk U off n = Some P -> 1 <= off <= zlen U -> 1 <= n <= 4 ->
    n = Z.land (hd 0 U) 3 + 1 ->
    exists v, unprotect hkey mask hk P off = UOk U n v /\ zlen P = zlen U /\
              v = match get_be (Z.to_nat n) 0 (sub (skipn (Z.to_nat off) U) 0 n) with Some (x, _) => x | None => 0 end.
  Proof.
    rewrite hp_protect_eq. intros H Hoff Hn Hbits. rewrite sample_room in H by lia.
    destruct (Z.ltb_spec (zlen U) (off + 20)) as [|Hlen]; [discriminate|].
    rewrite <- Hbits, Z.min_id in H. injection H as HP. set (m := mask hk (sample U off)) in HP.
    destruct (hp_apply_invol m U off n ltac:(lia) ltac:(lia) ltac:(lia)) as (Hinv & HlP & Hs & Hhd & _ & Hpn).
    rewrite HP in *. eexists. split; [|split; [exact HlP|reflexivity]].
    rewrite unprotect_eq, sample_room, HlP, Hs by lia.
    destruct (Z.ltb_spec (zlen U) (off + 20)); [lia|]. cbv zeta. fold m.
    rewrite Hhd, unmask_mask, <- Hbits, Hinv, Hpn, xor_prefix_invol. reflexivity.
  Qed.
End HP.

Lemma be_header_type t n bs h r : be_header t n bs = Ok h r -> header_type h = t.
Proof. apply be_header_yields. Qed.

Lemma be_packet_geom n dg h total off : be_packet n dg = POk h total off ->
  1 <= off <= total /\ total <= zlen dg /\ (is_data h = true -> off + 20 <= total) /\
  is_short h = negb (bit_set (hd 0 dg) 128).
Proof.
  intro E. pose proof (p_c03_packet_bounds _ _ _ _ _ E) as [Ht Ho].
  destruct (be_packet_ok _ _ _ _ _ E) as (t & remain & remain' & Et & Eh & Hc).
  destruct (be_packet_type_ok _ _ _ Et) as [Hr <-]. rewrite <- (be_header_type _ _ _ _ _ Eh).
  apply (safe_be_header t n remain) in Eh.
  destruct h; cbn [is_data is_short header_type].
  1,2: destruct Hc as [-> ->].
  3-5: destruct Hc as (payload & rest & El & H20 & -> & ->); apply length_data_ok in El; pose proof (zlen_nonneg rest).
  6: destruct Hc as (H20 & -> & ->).
  all: repeat split; try reflexivity; try discriminate; lia.
Qed.

Definition dropped (r : rx) : Prop :=
  match r with RxParse _ | RxInvalidPn | RxDecrypt | RxNotData _ => True | _ => False end.

Section Tamper.
  Variables key hkey : Type.
  Variable enc : key -> Z -> list Z -> list Z -> list Z.
  Variable dec : key -> Z -> list Z -> list Z -> option (list Z).
  Variable mask : hkey -> list Z -> list Z.

  Definition recv_data (k : key) (hk : hkey) (exp : Z) (h : header) (total off : Z) (pkt : list Z) : rx :=
    match unprotect hkey mask hk pkt off with
    | UPanic => RxPanic 1
    | UOk U n v =>
        if exp <? 0 then RxInvalidPn
        else match decode (mk_pnum n v) exp with
             | DecOverflow => RxPanic 2
             | DecOk pn =>
                 match dec k pn (firstn (Z.to_nat (off + n)) U) (skipn (Z.to_nat (off + n)) U) with
                 | Some body => if negb (Z.land (hd 0 U) (reserved_mask (is_short h)) =? 0) then RxConnErr
                                else RxAccept h total pn (is_short h && bit_set (hd 0 U) 4) body
                 | None => RxDecrypt
                 end
             end
    end.

  Lemma recv1_eq k hk dl exp dg : recv1 key hkey dec mask k hk dl exp dg =
    match be_packet dl dg with
    | PErr e => RxParse e
    | PPanic st => RxPanic st
    | POk h total off => if is_data h then recv_data k hk exp h total off (firstn (Z.to_nat total) dg)
                         else RxNotData (match h with HVN _ _ _ => 0 | _ => 1 end)
    end.
  Proof.
    unfold recv1, recv, recv_data. destruct (be_packet dl dg) as [h total off| |]; [|reflexivity ..].
    destruct h; try reflexivity; cbn [is_short is_data].
    all: destruct (unprotect _ _ _ _ _) as [U n v|]; [|reflexivity]; destruct (exp <? 0); [reflexivity|];
      destruct (decode _ _); [|reflexivity]; destruct (dec _ _ _ _); [|reflexivity]; destruct (negb _); reflexivity.
  Qed.

  (* the reserved bits are looked at only after the AEAD check has succeeded *)
  Lemma recv1_cases k hk dl exp dg :
    let r := recv1 key hkey dec mask k hk dl exp dg in
    dropped r \/ (r = RxPanic 2 /\ exists n v, decode (mk_pnum n v) exp = DecOverflow) \/
    exists h total off U n v pn body, be_packet dl dg = POk h total off /\
      unprotect hkey mask hk (firstn (Z.to_nat total) dg) off = UOk U n v /\
      dec k pn (firstn (Z.to_nat (off + n)) U) (skipn (Z.to_nat (off + n)) U) = Some body /\
      r = if negb (Z.land (hd 0 U) (reserved_mask (is_short h)) =? 0) then RxConnErr
          else RxAccept h total pn (is_short h && bit_set (hd 0 U) 4) body.
  Proof.
    cbv zeta. rewrite recv1_eq. destruct (be_packet dl dg) as [h total off|e|s] eqn:Ebe;
      [|left; exact I|exfalso; exact (p_c03_packet_no_panic _ _ _ Ebe)].
    destruct (is_data h) eqn:Hd; [|left; exact I]. unfold recv_data.
    destruct (unprotect hkey mask hk (firstn (Z.to_nat total) dg) off) as [U n v|] eqn:EU.
    2:{ (* there are 20 bytes to sample from *)
        exfalso. destruct (be_packet_geom _ _ _ _ _ Ebe) as (Ho & Ht & Ho20 & _).
        rewrite unprotect_eq, sample_room, zlen_firstn in EU by (rewrite ?zlen_firstn; lia).
        specialize (Ho20 Hd). destruct (Z.ltb_spec total (off + 20)); [lia|discriminate]. }
    destruct (exp <? 0); [left; exact I|].
    destruct (decode (mk_pnum n v) exp) as [pn|] eqn:Ed; [|right; left; eauto].
    destruct (dec k pn (firstn (Z.to_nat (off + n)) U) (skipn (Z.to_nat (off + n)) U)) as [body|] eqn:Edec; [|left; exact I].
    right; right. exists h, total, off, U, n, v, pn, body. auto.
  Qed.

  (* the cryptographic assumption proper (unforgeability), as a premise on the datagram the adversary
     hands to the receiver: no segment of it is an AEAD output for inputs other than the honest ones
     (k, pn, aad, body).  Every key of type [key] is a key the adversary does not know. *)
  Definition no_forgery (k : key) (pn : Z) (aad body dg : list Z) : Prop :=
    forall k' n' a' p' l r, dg = l ++ enc k' n' a' p' ++ r -> k' = k /\ n' = pn /\ a' = aad /\ p' = body.
End Tamper.

Definition build_hdr (rsv : Z) (h : header) (phase : bool) (w blen : Z) : list Z :=
  Z.lor (hd 0 (put_header h)) ((w - 1) + (if is_short h && phase then 4 else 0) + rsv)
    :: tl (put_header h) ++ (if is_short h then [] else put_be 2 (2 ^ 14 + (w + blen + TAG_LEN))).
Definition build_aad_r (rsv : Z) (h : header) (phase : bool) (e : pnum) (blen : Z) : list Z :=
  build_hdr rsv h phase (width e) blen ++ pn_bytes e.
Definition build_aad := build_aad_r 0.
Definition pn_off (h : header) : Z := header_size h + (if is_short h then 0 else 2).

(* values of the two reserved bits of the first byte *)
Definition rsv_values (short : bool) : list Z := if short then [0; 8; 16; 24] else [0; 4; 8; 12].

Lemma width_range e : 1 <= width e <= 4.
Proof. destruct e; cbn; lia. Qed.

Lemma zlen_pn_bytes e : zlen (pn_bytes e) = width e.
Proof. unfold pn_bytes. rewrite put_be_zlen. pose proof (width_range e). lia. Qed.

Lemma pn_bytes_read e : 0 <= payload e < 2 ^ (8 * width e) ->
  get_be (Z.to_nat (width e)) 0 (pn_bytes e) = Some (payload e, []) /\ mk_pnum (width e) (payload e) = wire e.
Proof.
  intro Hp. pose proof (width_range e) as Hw. split.
  - rewrite <- (app_nil_r (pn_bytes e)). apply get_be_put_be_exact. rewrite Z2Nat.id by lia. change 256 with (2 ^ 8).
    rewrite <- Z.pow_mul_r by lia. exact Hp.
  - destruct e as [x|x|x|x]; try reflexivity. cbn in Hp |- *. f_equal. Z.div_mod_to_equations. lia.
Qed.

(* first byte written by encode_{long,short}_first_byte onto the type bits t: pn-length bits, key-phase bit, reserved
   bits; what it adds lies within the bits that header protection covers.  A table of 5 x 4 x 2 x 4 bytes, checked once. *)
Definition first_byte_ok (short : bool) (t w : Z) (phase : bool) (rsv : Z) : bool :=
  let b0 := Z.lor t ((w - 1) + (if short && phase then 4 else 0) + rsv) in
  (w =? Z.land b0 3 + 1) && (Z.land b0 (reserved_mask short) =? rsv) &&
  Bool.eqb (short && bit_set b0 4) (short && phase) && Bool.eqb short (negb (bit_set b0 128)) &&
  (hp_bits b0 =? hp_bits t) && (b0 / (hp_bits t + 1) =? t / (hp_bits t + 1)).

Lemma first_byte_table :
  forallb (fun st : bool * Z => forallb (fun w => forallb (fun ph =>
    forallb (first_byte_ok (fst st) (snd st) w ph) (rsv_values (fst st))) [true; false]) [1; 2; 3; 4])
    [(false, 192); (false, 208); (false, 224); (true, 64); (true, 96)] = true.
Proof. vm_compute. reflexivity. Qed.

Lemma first_byte_facts rsv h phase e blen C : is_data h = true -> In rsv (rsv_values (is_short h)) ->
  let t := hd 0 (put_header h) in
  let b0 := hd 0 (build_aad_r rsv h phase e blen ++ C) in
  width e = Z.land b0 3 + 1 /\ Z.land b0 (reserved_mask (is_short h)) = rsv /\
  (is_short h && bit_set b0 4) = (is_short h && phase) /\ is_short h = negb (bit_set b0 128) /\
  hp_bits b0 = hp_bits t /\ b0 / (hp_bits t + 1) = t / (hp_bits t + 1).
Proof.
  intros Hd Hin. pose proof first_byte_table as T. rewrite forallb_forall in T.
  specialize (T (is_short h, hd 0 (put_header h)) ltac:(destruct h as [| | | | |[]]; try discriminate; cbn; auto 6)).
  cbn [fst snd] in T. rewrite forallb_forall in T. specialize (T (width e) ltac:(destruct e; cbn; auto)).
  rewrite forallb_forall in T. specialize (T phase ltac:(destruct phase; cbn; auto)).
  rewrite forallb_forall in T. specialize (T rsv Hin).
  unfold first_byte_ok in T. cbv zeta. unfold build_aad_r, build_hdr. cbn [app hd].
  apply andb_prop in T as [T T6]. apply andb_prop in T as [T T5]. apply andb_prop in T as [T T4].
  apply andb_prop in T as [T T3]. apply andb_prop in T as [T1 T2].
  repeat apply conj; [apply Z.eqb_eq, T1 | apply Z.eqb_eq, T2 | apply eqb_prop, T3 | apply eqb_prop, T4
                     | apply Z.eqb_eq, T5 | apply Z.eqb_eq, T6].
Qed.

Lemma put_header_cons h : put_header h = hd 0 (put_header h) :: tl (put_header h).
Proof. destruct h as [| | | | |[]]; reflexivity. Qed.

Lemma build_lengths rsv h phase e blen : wf_header h -> is_data h = true ->
  1 <= pn_off h /\ zlen (build_hdr rsv h phase (width e) blen) = pn_off h /\
  zlen (build_aad_r rsv h phase e blen) = pn_off h + width e.
Proof.
  intros Hwf Hd. pose proof (p_c05_header_size h Hwf) as Hs. rewrite (put_header_cons h), zlen_cons in Hs.
  pose proof (zlen_nonneg (tl (put_header h))).
  unfold build_aad_r, build_hdr, pn_off. rewrite zlen_app, zlen_pn_bytes, zlen_cons, zlen_app.
  destruct h; try discriminate; cbn [is_short]; rewrite ?put_be_zlen; change (zlen (@nil Z)) with 0; lia.
Qed.

(* the type of a packet is read from bits that header protection does not cover *)
Lemma be_packet_type_hi b b' r : b' / (hp_bits b + 1) = b / (hp_bits b + 1) ->
  be_packet_type (b' :: r) = be_packet_type (b :: r).
Proof.
  unfold be_packet_type, hp_bits. destruct (bit_set b 128) eqn:E7; intro E.
  - pose proof (bit_set_div b b' 4 7 ltac:(lia) E) as B7. pose proof (bit_set_div b b' 4 6 ltac:(lia) E) as B6.
    change (2 ^ 7) with 128 in B7. change (2 ^ 6) with 64 in B6. change (15 + 1) with 16 in E.
    rewrite B7, B6, E, E7. reflexivity.
  - pose proof (bit_set_div b b' 5 7 ltac:(lia) E) as B7. pose proof (bit_set_div b b' 5 5 ltac:(lia) E) as B5.
    change (2 ^ 7) with 128 in B7. change (2 ^ 5) with 32 in B5. rewrite B7, B5, E7. reflexivity.
Qed.

(* encode_varint(.., Two): the length of a long packet always takes two bytes *)
Lemma length_data_two x d : zlen d = x -> x < 2 ^ 14 -> length_data (put_be 2 (2 ^ 14 + x) ++ d) = Ok d [].
Proof.
  intros Hd Hx. pose proof (zlen_nonneg d) as H0. rewrite Hd in H0.
  pose proof (be_varint_put_be 1 1 x d ltac:(lia) (conj H0 Hx) eq_refl : be_varint (put_be 2 (2 ^ 14 + x) ++ d) = Ok x d) as Ev.
  unfold length_data, bind. rewrite Ev. unfold take_s. rewrite <- Hd, Z.ltb_irrefl.
  unfold zlen. rewrite Nat2Z.id, firstn_all, skipn_all. reflexivity.
Qed.

Lemma protected_parses m rsv h phase e blen C dl :
  wf_header h -> is_data h = true -> In rsv (rsv_values (is_short h)) -> dcid_len_of h dl ->
  zlen C = blen + TAG_LEN -> 20 <= width e + blen + TAG_LEN ->
  (is_short h = false -> width e + blen + TAG_LEN < 2 ^ 14) ->
  let P := hp_apply m (build_aad_r rsv h phase e blen ++ C) (pn_off h) (width e) in
  be_packet dl P = POk h (zlen P) (pn_off h).
Proof.
  intros Hwf Hd Hrsv Hdl HC H20 H14. cbv zeta.
  destruct (build_lengths rsv h phase e blen Hwf Hd) as (Ho & Hlh & _).
  destruct (first_byte_facts rsv h phase e blen C Hd Hrsv) as (_ & _ & _ & _ & Hhp & Hhi).
  pose proof (zlen_pn_bytes e) as Hpn.
  unfold build_aad_r, build_hdr in *. cbn [app hd] in Hhp, Hhi.
  set (b0 := Z.lor _ _) in *. set (len := if is_short h then _ else _) in *.
  rewrite zlen_cons in Hlh.
  rewrite <- app_assoc. cbn [app]. rewrite !hp_apply_split by (assumption || lia).
  set (X := xor_prefix (pn_bytes e) (tl m)). assert (HX : zlen X = width e) by (unfold X; now rewrite zlen_xor_prefix).
  set (dg := Z.lxor b0 (Z.land (hd 0 m) (hp_bits b0)) :: (tl (put_header h) ++ len) ++ X ++ C).
  assert (Hdg : zlen dg = pn_off h + width e + zlen C) by (unfold dg; rewrite zlen_cons, !zlen_app in *; lia).
  unfold be_packet. unfold dg at 1.
  rewrite (be_packet_type_hi (hd 0 (put_header h))) by (rewrite <- Hhi, <- Hhp; apply div_masked).
  rewrite <- app_assoc, app_comm_cons, <- (put_header_cons h), (header_body h), <- app_assoc, p_c05_packet_type_rt.
  rewrite (fun n rest Hw Ht Hn => p_c05_header_rt h n _ rest Hw Ht Hn (header_body h))
    by (assumption || (destruct h; try discriminate; exact I)).
  destruct h; try discriminate; cbn [is_short] in *; unfold len.
  1-3: rewrite length_data_two by (rewrite ?zlen_app; lia);
       rewrite zlen_app, zlen_nil; (destruct (Z.ltb_spec (zlen X + zlen C) 20); [lia|]); f_equal; lia.
  cbn [app]. rewrite zlen_app. destruct (Z.ltb_spec (zlen X + zlen C) 20); [lia|]. f_equal; lia.
Qed.

Section Build.
  Variables key hkey : Type.
  Variable enc : key -> Z -> list Z -> list Z -> list Z.
  Variable dec : key -> Z -> list Z -> list Z -> option (list Z).
  Variable mask : hkey -> list Z -> list Z.
  Hypothesis enc_dec : forall k n a p, dec k n a (enc k n a p) = Some p.
  Hypothesis enc_len : forall k n a p, zlen (enc k n a p) = zlen p + TAG_LEN.
  Variables (rsv : Z) (h : header) (phase : bool) (pn : Z) (e : pnum) (body : list Z) (bufsz : Z) (k : key) (hk : hkey).

  Lemma build_spec P :
    build_r key hkey enc mask rsv h phase pn e body bufsz k hk = BOk P ->
    let aad := build_aad_r rsv h phase e (zlen body) in
    is_data h = true /\
    hp_protect hkey mask hk (aad ++ enc k pn aad body) (pn_off h) (width e) = Some P /\
    20 <= width e + zlen body + TAG_LEN /\ pn_off h + 20 <= bufsz /\
    (is_short h = false -> width e + zlen body + TAG_LEN < 2 ^ 14).
  Proof.
    unfold build_r. fold (pn_off h). destruct (is_data h); cbn [negb]; [|discriminate].
    destruct (Z.ltb_spec bufsz (pn_off h + 20)); [discriminate|].
    destruct (Z.ltb_spec (bufsz - TAG_LEN - (pn_off h + width e)) (zlen body)); [discriminate|].
    destruct (Z.ltb_spec (width e + zlen body + TAG_LEN) 20); [discriminate|].
    destruct (negb (is_short h) && (2 ^ 14 <=? width e + zlen body + TAG_LEN)) eqn:E14; [discriminate|].
    fold (build_hdr rsv h phase (width e) (zlen body)). fold (build_aad_r rsv h phase e (zlen body)).
    destruct (hp_protect _ _ _ _ _ _) as [p|]; [|discriminate].
    intro E. injection E as <-. repeat split; try assumption.
    intro Hs. rewrite Hs in E14. apply Z.leb_gt, E14.
  Qed.

  (* the masked low bits of the first byte and the 2-byte length field do not disturb the header parser *)
  Lemma build_parses P dl :
    build_r key hkey enc mask rsv h phase pn e body bufsz k hk = BOk P -> wf_header h ->
    In rsv (rsv_values (is_short h)) -> dcid_len_of h dl ->
    be_packet dl P = POk h (zlen P) (pn_off h).
  Proof.
    intros HB Hwf Hrsv Hdl. destruct (build_spec _ HB) as (Hd & HP & H20 & _ & H14).
    destruct (first_byte_facts rsv h phase e (zlen body) (enc k pn (build_aad_r rsv h phase e (zlen body)) body) Hd Hrsv)
      as (Hw & _).
    (* through the lemma: rewriting with [hp_protect_eq] in place makes Qed unfold the built packet *)
    apply hp_protect_some in HP. rewrite <- Hw, Z.min_id in HP. subst P.
    apply protected_parses; try assumption. apply enc_len.
  Qed.

  (* ROUND TRIP (rsv = 0) and the answer to an AUTHENTIC packet with reserved bits set (rsv <> 0) *)
  Lemma p_c06_roundtrip_r P dl exp :
    build_r key hkey enc mask rsv h phase pn e body bufsz k hk = BOk P -> wf_header h ->
    In rsv (rsv_values (is_short h)) ->
    be_packet dl P = POk h (zlen P) (pn_off h) ->
    0 <= exp -> decode (wire e) exp = DecOk pn -> 0 <= payload e < 2 ^ (8 * width e) ->
    recv1 key hkey dec mask k hk dl exp P =
      if rsv =? 0 then RxAccept h (zlen P) pn (is_short h && phase) body else RxConnErr.
  Proof.
    intros HB Hwf Hrsv Hparse Hexp Hdecode Hpay.
    destruct (build_spec _ HB) as (Hd & HP & H20 & _ & _).
    set (aad := build_aad_r rsv h phase e (zlen body)) in *. set (U0 := aad ++ enc k pn aad body) in *.
    destruct (build_lengths rsv h phase e (zlen body) Hwf Hd) as (Hoff & Hlh & Hla). fold aad in Hla.
    destruct (first_byte_facts rsv h phase e (zlen body) (enc k pn aad body) Hd Hrsv) as (Hw & Hres & Hph & _).
    fold aad U0 in Hw, Hres, Hph.
    pose proof (width_range e) as Hwr.
    assert (HlU : zlen U0 = pn_off h + width e + (zlen body + TAG_LEN)) by (unfold U0; rewrite zlen_app, enc_len, Hla; lia).
    destruct (protect_unprotect hkey mask hk U0 (pn_off h) (width e) P HP ltac:(lia) Hwr Hw) as (v & HU & HlP & Hv).
    (* the undecoded packet number read back is the one written *)
    assert (Hvv : mk_pnum (width e) v = wire e).
    { destruct (pn_bytes_read e Hpay) as [Hget <-]. rewrite Hv. unfold U0, aad, build_aad_r.
      rewrite <- app_assoc, (skipn_exact _ _ _ Hlh). unfold sub. cbn [Z.to_nat skipn].
      rewrite (firstn_exact _ _ _ (zlen_pn_bytes e)), Hget. reflexivity. }
    rewrite recv1_eq, Hparse, Hd. unfold recv_data. rewrite firstn_zlen, HU.
    destruct (Z.ltb_spec exp 0); [lia|]. rewrite Hvv, Hdecode, <- Hla. unfold U0 at 1 2.
    rewrite firstn_zlen_app, skipn_zlen_app, enc_dec, Hres, Hph.
    destruct (rsv =? 0); reflexivity.
  Qed.

  Lemma build_ok :
    wf_header h -> is_data h = true ->
    pn_off h + width e + zlen body + TAG_LEN <= bufsz -> 20 <= width e + zlen body + TAG_LEN ->
    (is_short h = false -> width e + zlen body + TAG_LEN < 2 ^ 14) ->
    exists P, build_r key hkey enc mask rsv h phase pn e body bufsz k hk = BOk P.
  Proof.
    intros Hwf Hd Hf H20 H14. unfold build_r. fold (pn_off h). rewrite Hd. cbn [negb].
    destruct (Z.ltb_spec bufsz (pn_off h + 20)); [lia|].
    destruct (Z.ltb_spec (bufsz - TAG_LEN - (pn_off h + width e)) (zlen body)); [lia|].
    destruct (Z.ltb_spec (width e + zlen body + TAG_LEN) 20); [lia|].
    replace (negb (is_short h) && (2 ^ 14 <=? width e + zlen body + TAG_LEN)) with false
      by (destruct (is_short h); [reflexivity|]; symmetry; apply Z.leb_gt, H14; reflexivity).
    fold (build_hdr rsv h phase (width e) (zlen body)). fold (build_aad_r rsv h phase e (zlen body)).
    destruct (build_lengths rsv h phase e (zlen body) Hwf Hd) as (Hoff & _ & Hla).
    rewrite hp_protect_eq, sample_room, zlen_app, enc_len, Hla by (rewrite zlen_app, enc_len, Hla; lia).
    destruct (Z.ltb_spec (pn_off h + width e + (zlen body + TAG_LEN)) (pn_off h + 20)); [lia|]. eexists. reflexivity.
  Qed.

  Lemma built_roundtrip dl exp :
    wf_header h -> is_data h = true ->
    pn_off h + width e + zlen body + TAG_LEN <= bufsz -> 20 <= width e + zlen body + TAG_LEN ->
    (is_short h = false -> width e + zlen body + TAG_LEN < 2 ^ 14) ->
    In rsv (rsv_values (is_short h)) -> dcid_len_of h dl ->
    0 <= exp -> decode (wire e) exp = DecOk pn -> 0 <= payload e < 2 ^ (8 * width e) ->
    exists P, build_r key hkey enc mask rsv h phase pn e body bufsz k hk = BOk P /\
      be_packet dl P = POk h (zlen P) (pn_off h) /\
      recv1 key hkey dec mask k hk dl exp P =
        if rsv =? 0 then RxAccept h (zlen P) pn (is_short h && phase) body else RxConnErr.
  Proof.
    intros Hwf Hd Hf H20 H14 Hrsv Hdl Hexp Hdec Hpay.
    destruct (build_ok Hwf Hd Hf H20 H14) as [P HB].
    pose proof (build_parses _ _ HB Hwf Hrsv Hdl) as Hparse.
    exists P. split; [exact HB|]. split; [exact Hparse|].
    exact (p_c06_roundtrip_r _ _ _ HB Hwf Hrsv Hparse Hexp Hdec Hpay).
  Qed.
End Build.

(* the toy cipher of the harness meets the hypotheses made of enc and dec *)
Lemma toy_xor_length k n : forall l i, length (toy_xor k n i l) = length l.
Proof. induction l as [|b r IH]; intro i; cbn; auto. Qed.

Lemma toy_xor_invol k n : forall l i, toy_xor k n i (toy_xor k n i l) = l.
Proof.
  induction l as [|b r IH]; intro i; cbn [toy_xor]; [reflexivity|].
  rewrite IH, Z.lxor_assoc, Z.lxor_nilpotent, Z.lxor_0_r. reflexivity.
Qed.

Lemma list_eqb_refl l : list_eqb l l = true.
Proof. induction l as [|x l IH]; cbn; [reflexivity|]. now rewrite Z.eqb_refl, IH. Qed.

Lemma list_eqb_eq : forall a b, list_eqb a b = true -> a = b.
Proof.
  induction a as [|x a IH]; intros [|y b] H; cbn in H; try discriminate; [reflexivity|].
  apply andb_prop in H. destruct H as [H1 H2]. apply Z.eqb_eq in H1. subst y. f_equal. auto.
Qed.

Lemma toy_tag_length k n a b : zlen (toy_tag k n a b) = 16.
Proof. reflexivity. Qed.

Lemma p_c06_toy_enc_len k n a p : zlen (toy_enc k n a p) = zlen p + TAG_LEN.
Proof. unfold toy_enc. rewrite zlen_app, toy_tag_length. unfold zlen. rewrite toy_xor_length. reflexivity. Qed.

Lemma p_c06_toy_enc_dec k n a p : toy_dec k n a (toy_enc k n a p) = Some p.
Proof.
  unfold toy_dec. pose proof (p_c06_toy_enc_len k n a p) as HL. pose proof (zlen_nonneg p) as Hp.
  unfold TAG_LEN in HL. destruct (Z.ltb_spec (zlen (toy_enc k n a p)) 16) as [|_]; [lia|].
  rewrite HL. replace (zlen p + 16 - 16) with (zlen (toy_xor k n 0 p)) by (unfold zlen; rewrite toy_xor_length; lia).
  unfold toy_enc. rewrite firstn_zlen_app, skipn_zlen_app, list_eqb_refl, toy_xor_invol. reflexivity.
Qed.

Definition toy_roundtrip := built_roundtrip Z Z toy_enc toy_dec toy_mask p_c06_toy_enc_dec p_c06_toy_enc_len.

Section Statements.
  Variables key hkey : Type.
  Variable enc : key -> Z -> list Z -> list Z -> list Z.
  Variable dec : key -> Z -> list Z -> list Z -> option (list Z).
  Variable mask : hkey -> list Z -> list Z.
  (* dec accepts only what enc produces under the same key, nonce and associated data *)
  Hypothesis auth : forall k n a c p, dec k n a c = Some p -> c = enc k n a p.

  (* the honest sender built P (reserved bits 0, as the writer always does) *)
  Variables (h : header) (phase : bool) (pn : Z) (e : pnum) (body : list Z) (bufsz : Z) (k : key) (hk : hkey) (P : list Z).
  Hypothesis built : build key hkey enc mask h phase pn e body bufsz k hk = BOk P.
  Hypothesis Hwf : wf_header h.

  (* Whatever datagram reaches a receiver holding any packet key, any header key and any packet-number expectation: if
     the AEAD check of a packet in it succeeds, the receiver used the sender's key, decoded the sender's packet number
     and obtained the sender's body, the packet has the sender's header form and no reserved bit set, and it is bit for
     bit the packet sent when header protection was removed with the sender's header key. *)
  Lemma authentic_is_sent k' hk' dl dg h' total off U n v pn' body' :
    no_forgery key enc k pn (build_aad h phase e (zlen body)) body dg ->
    be_packet dl dg = POk h' total off ->
    unprotect hkey mask hk' (firstn (Z.to_nat total) dg) off = UOk U n v ->
    dec k' pn' (firstn (Z.to_nat (off + n)) U) (skipn (Z.to_nat (off + n)) U) = Some body' ->
    k' = k /\ pn' = pn /\ body' = body /\ (hk' = hk -> firstn (Z.to_nat total) dg = P) /\
    is_short h' = is_short h /\ Z.land (hd 0 U) (reserved_mask (is_short h')) = 0.
  Proof.
    intros Hnf Hbe HU Hdec. destruct (build_spec _ _ enc mask _ _ _ _ _ _ _ _ _ _ built) as (Hd & HP & _).
    destruct (build_lengths 0 h phase e (zlen body) Hwf Hd) as (_ & _ & Hla).
    fold (build_aad h phase e (zlen body)) in *. set (aad := build_aad h phase e (zlen body)) in *.
    destruct (first_byte_facts 0 h phase e (zlen body) (enc k pn aad body) Hd ltac:(destruct (is_short h); left; reflexivity))
      as (Hw & Hres & _ & Hform & _). fold (build_aad h phase e (zlen body)) aad in Hw, Hres, Hform.
    destruct (be_packet_geom _ _ _ _ _ Hbe) as (Ho & Ht & _ & Hf).
    set (pkt := firstn (Z.to_nat total) dg) in *.
    destruct (unprotect_inv hkey mask hk' pkt off U n v HU) as (Hprot & HlU & Hn4 & Hn & Hsk & H20);
      [unfold pkt; rewrite zlen_firstn; lia|].
    apply auth in Hdec.
    (* the datagram contains the accepted ciphertext as a segment: it was made from the sender's inputs *)
    destruct (Hnf k' pn' (firstn (Z.to_nat (off + n)) U) body' (firstn (Z.to_nat (off + n)) pkt) (skipn (Z.to_nat total) dg))
      as (-> & -> & Ha & ->).
    { rewrite <- Hdec, Hsk, app_assoc, firstn_skipn. symmetry. apply firstn_skipn. }
    assert (HU0 : U = aad ++ enc k pn aad body) by (rewrite <- (firstn_skipn (Z.to_nat (off + n)) U), Hdec, Ha; reflexivity).
    (* the parsed header has the sender's form, so the reserved mask applied is the sender's: the bits are 0 *)
    assert (Hsh : is_short h' = is_short h).
    { rewrite Hf, Hform, <- HU0, (unprotect_form _ _ _ _ _ _ _ _ HU). unfold pkt.
      destruct dg; [cbn in Ht; lia|]. replace (Z.to_nat total) with (S (Z.to_nat (total - 1))) by lia. reflexivity. }
    rewrite Hsh, HU0. repeat split; try assumption; try reflexivity.
    (* under the sender's header key the same bytes are protected at the same place *)
    intros ->. rewrite HU0, <- Hw in Hn. apply (f_equal zlen) in Ha. rewrite zlen_firstn, Hla in Ha by lia.
    replace off with (pn_off h) in Hprot by lia. rewrite Hn, HU0, HP in Hprot. injection Hprot as <-. reflexivity.
  Qed.

  (* a datagram that holds no forgery is never answered with a connection error *)
  Lemma recv1_unforged k' hk' dl exp dg :
    no_forgery key enc k pn (build_aad h phase e (zlen body)) body dg ->
    let r := recv1 key hkey dec mask k' hk' dl exp dg in
    dropped r \/ (r = RxPanic 2 /\ exists n v, decode (mk_pnum n v) exp = DecOverflow) \/
    exists h' total ph, r = RxAccept h' total pn ph body /\ k' = k /\ is_short h' = is_short h /\
                        (hk' = hk -> firstn (Z.to_nat total) dg = P).
  Proof.
    intro Hnf. cbv zeta.
    destruct (recv1_cases key hkey dec mask k' hk' dl exp dg)
      as [Hdrop|[Hov|(h' & total & off & U & n & v & pn' & body' & Hbe & HU & Hdec & ->)]]; auto.
    destruct (authentic_is_sent _ _ _ _ _ _ _ _ _ _ _ _ Hnf Hbe HU Hdec)
      as (-> & -> & -> & HPeq & Hsh & ->).
    right; right. exists h', total, (is_short h' && bit_set (hd 0 U) 4). auto.
  Qed.
End Statements.
