(* Link between the stream entry point run_cc (what the extracted model executes on the wire form
   of the operations) and [reach]: every controller state visited by run_cc is reachable, so all
   theorems about reachable states apply to every state behind an observation line. *)
From Coq Require Import List ZArith Lia.
From GQ Require Import Model.Pto Proofs.Pto.
Import ListNotations.
Local Open Scope Z_scope.

(* the only side condition on the wire form: clock advances are not negative (the harness reads
   them as u64) *)
Definition wire_ok (x : N * list Z) : Prop :=
  forall dt, snd (decode (fst x) (snd x)) = OpAdv dt -> 0 <= dt.

Lemma clamp_epoch_in e : In (clamp_epoch e) epochs.
Proof.
  unfold clamp_epoch, epochs. destruct (e <? 0) eqn:E; [cbn; auto|]. apply Z.ltb_ge in E.
  destruct (Z.min_spec e 2) as [(A & ->)|(A & ->)]; cbn; [|auto].
  assert (e = 0 \/ e = 1) by lia. intuition.
Qed.

(* the decoder yields epochs 0..2 only; a clock advance is the one operation [wire_ok] speaks of *)
Lemma decode_op_ok t a : (forall dt, decode_op t a = OpAdv dt -> 0 <= dt) -> op_ok (decode_op t a).
Proof.
  unfold decode_op.
  (* the decoder's match on the tag and on the shape of the argument list, taken apart to its leaves *)
  repeat match goal with
         | |- context [match ?x with _ => _ end] => is_var x; destruct x
         end; intro H; try exact I; try apply clamp_epoch_in;
    try (destruct (Nat.even _); apply clamp_epoch_in).
  now apply H.
Qed.

Lemma decode_ok t a : wire_ok (t, a) -> op_ok (snd (decode t a)).
Proof.
  unfold wire_ok, decode. cbn [fst snd].
  destruct a as [|ld [|sr [|rv [|la [|has [|nt rest]]]]]]; cbn [snd]; try (intros _; exact I).
  apply decode_op_ok.
Qed.

Fixpoint cc_states (c : cc) (l : list (N * list Z)) : list cc :=
  match l with
  | [] => []
  | (t, a) :: rest =>
      let c1 := fst (cc_obs c (fst (decode t a)) (snd (decode t a))) in
      c1 :: cc_states c1 rest
  end.

Lemma cc_obs_reach c ri o : reach c -> op_ok o -> reach (fst (cc_obs c ri o)).
Proof.
  intros Hr Ho. pose proof (reachS c ri o Hr Ho) as X. unfold cc_obs. destruct (c_dead c); [exact Hr|].
  destruct o; try exact Hr; revert X; now destruct (cc_step c ri _).
Qed.

Lemma cc_states_reach c l : reach c -> Forall wire_ok l -> Forall reach (cc_states c l).
Proof.
  revert c. induction l as [|[t a] rest IH]; intros c Hr Hf; cbn [cc_states]; [constructor|].
  inversion Hf as [|? ? Hw Hrest]; subst.
  pose proof (cc_obs_reach c (fst (decode t a)) _ Hr (decode_ok t a Hw)) as R1.
  constructor; [exact R1|now apply IH].
Qed.
