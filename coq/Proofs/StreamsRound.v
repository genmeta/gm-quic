(* The good round on the two-endpoint system of Model/Streams.v (property C01, progress clause):
   lose every frame of the pool; emit on both sides until nothing more is emitted; deliver every
   frame; acknowledge every frame.  Each step of the round is a step of one flow ([on_flow]); what
   it does to that flow is taken from Proofs/StreamsLive.v, what it does to the system around the
   flow is said once ([on_flow_calm]). *)
From Coq Require Import List NArith Bool Lia.
From GQ Require Import Lib.Base Lib.Slice Model.SendBuf Model.Streams.
From GQ Require Import Proofs.StreamCtl Proofs.Streams Proofs.StreamsSys Proofs.StreamsLive.
Import ListNotations.
Local Open Scope N_scope.

(* a calm system: open, no reset or stop anywhere, written lengths within the windows; [round_ok] of
   Proofs/StreamsLive.v is [flow_reach] and [flow_quiet] *)
Definition flow_quiet (fl : flow) : Prop := ~ is_reset (fl_snd fl) /\ wr (fl_snd fl) <= md (fl_snd fl).
Definition is_frs (f : fframe) : Prop := exists off len fin d, f = FrS off len fin d.

Definition Calm (s : sys) : Prop :=
  sy_closed s = false /\ SysInv s /\
  (forall key fl, alookup (sy_flows s) key = Some fl -> flow_quiet fl) /\
  (forall key f, In (key, f) (sy_pool s) -> is_frs f /\ exists fl, alookup (sy_flows s) key = Some fl).

Lemma calm_round_ok s key fl : Calm s -> alookup (sy_flows s) key = Some fl -> round_ok (cof key) fl (proj key (sy_pool s)).
Proof. intros (_ & HI & HQ & _) El. split; [exact (HI _ _ El)|exact (HQ _ _ El)]. Qed.

Lemma Calm_same s s' : same_fp s s' -> sy_closed s' = sy_closed s -> Calm s -> Calm s'.
Proof.
  intros L E3 (Hc & HI & HQ & HP). split; [congruence|]. split; [exact (SysInv_same s s' L HI)|].
  destruct L as (E1 & E2 & _). rewrite E1, E2. split; assumption.
Qed.

(* what the output sets depend on *)
Definition osig (s : sys) : list (N * bool) * list N * N * N :=
  (map (fun kf : N * flow => (fst kf, sn_inset (fl_snd (snd kf)))) (sy_flows s), sy_dirs s, sy_kbi s, sy_kuni s).

Lemma outgoing_keys_osig s s' side : osig s = osig s' -> outgoing_keys s side = outgoing_keys s' side.
Proof.
  unfold osig. intro H. injection H as H1 H2 H3 H4. unfold outgoing_keys, known. rewrite H2, H3, H4.
  revert H1. generalize (sy_flows s'). induction (sy_flows s) as [|[k f] t IH]; intros [|[k' f'] t'] H1; try discriminate; [reflexivity|].
  cbn [map fst snd] in H1. injection H1 as -> Hi Ht. cbn [fold_right fst snd]. rewrite Hi, (IH _ Ht). reflexivity.
Qed.

Definition listed (s : sys) (side key : N) : Prop := exists sid, alookup (outgoing_keys s side) sid = Some key.

Lemma listed_osig s s' side key : osig s = osig s' -> listed s side key -> listed s' side key.
Proof. intros H [sid Hs]. exists sid. rewrite <- (outgoing_keys_osig _ _ side H). exact Hs. Qed.

Lemma osig_lookup s s' key fl :
  osig s = osig s' -> alookup (sy_flows s) key = Some fl ->
  exists fl', alookup (sy_flows s') key = Some fl' /\ sn_inset (fl_snd fl') = sn_inset (fl_snd fl).
Proof.
  unfold osig. intros H El. injection H as H1 _ _ _.
  pose proof (alookup_map (fun f => sn_inset (fl_snd f)) (sy_flows s) key) as A.
  pose proof (alookup_map (fun f => sn_inset (fl_snd f)) (sy_flows s') key) as B.
  cbv beta in A, B. rewrite H1, B, El in A. destruct (alookup (sy_flows s') key) as [fl'|]; [|discriminate].
  cbn [option_map] in A. injection A as A. eauto.
Qed.

Definition drained_in (s : sys) (key : N) : Prop :=
  exists fl, alookup (sy_flows s) key = Some fl /\ snd_drained (fl_snd fl).

Definition emits (s s' : sys) : Prop := Calm s' /\ osig s' = osig s /\ forall key, drained_in s key -> drained_in s' key.

Lemma emits_refl s : Calm s -> emits s s.
Proof. intro Hc. split; [exact Hc|]. split; [reflexivity|auto]. Qed.
Lemma emits_trans a b c : emits a b -> emits b c -> emits a c.
Proof. intros (_ & A2 & A3) (B1 & B2 & B3). split; [exact B1|]. split; [congruence|auto]. Qed.
Lemma emits_drained s s' key : emits s s' -> drained_in s key -> drained_in s' key.
Proof. intros (_ & _ & K). apply K. Qed.
Lemma emits_flow s s' key : emits s s' -> (exists fl, alookup (sy_flows s) key = Some fl) -> exists fl, alookup (sy_flows s') key = Some fl.
Proof. intros (_ & E & _) [fl El]. destruct (osig_lookup _ _ _ _ (eq_sym E) El) as (fl' & El' & _). eauto. Qed.

Lemma on_flow_calm s key o s' fr out :
  Calm s -> on_flow s key o = Some (s', fr, out) ->
  exists fl fl', alookup (sy_flows s) key = Some fl /\ flow_step (cof key) fl o = (fl', fr, out) /\
    round_ok (cof key) fl (proj key (sy_pool s)) /\
    (forall k, alookup (sy_flows s') k = if key =? k then Some fl' else alookup (sy_flows s) k) /\
    sy_pool s' = sy_pool s ++ map (fun f => (key, f)) fr /\
    (round_ok (cof key) fl' (proj key (sy_pool s) ++ fr) -> Forall is_frs fr -> Calm s') /\
    (sn_inset (fl_snd fl') = sn_inset (fl_snd fl) -> osig s' = osig s).
Proof.
  intros Hc E. destruct (on_flow_some _ _ _ _ _ _ E) as (fl & fl' & El & Es & Eq & At).
  exists fl, fl'. split; [exact El|]. split; [exact Es|]. split; [exact (calm_round_ok _ _ _ Hc El)|].
  split; [intro k; exact (proj1 (At k))|]. split; [rewrite Eq; reflexivity|]. split.
  - intros Hr Hfr. pose proof Hc as (Hcl & _ & _ & HP).
    assert (HR : forall k f, alookup (sy_flows s') k = Some f -> round_ok (cof k) f (proj k (sy_pool s'))).
    { intros k f. destruct (At k) as [-> ->]. destruct (N.eqb_spec key k) as [<-|NE].
      - intro H. injection H as <-. exact Hr.
      - rewrite app_nil_r. apply calm_round_ok. exact Hc. }
    split; [rewrite Eq; exact Hcl|]. split; [intros k f H; exact (proj1 (HR k f H))|].
    split; [intros k f H; exact (proj2 (HR k f H))|].
    intros k f Hin. rewrite (proj1 (At k)). rewrite Eq in Hin. apply in_app_or in Hin. destruct Hin as [Hin|Hin].
    + destruct (HP _ _ Hin) as [A [x B]]. split; [exact A|]. rewrite B. destruct (key =? k); eauto.
    + apply in_map_iff in Hin. destruct Hin as (f0 & Hq & Hf0). injection Hq as <- <-. rewrite N.eqb_refl.
      rewrite Forall_forall in Hfr. eauto.
  - intro Hi. rewrite Eq. unfold osig. cbn [sy_flows sy_dirs sy_kbi sy_kuni set_pool set_flows].
    rewrite (map_aupdate_keep _ _ _ fl' _ El); [reflexivity|]. cbn [fst snd]. f_equal. exact Hi.
Qed.

Lemma app_call_ok s key o extra s' obs fl :
  alookup (sy_flows s) key = Some fl -> app_call s key o extra = (s', obs) ->
  exists s2 fr out, on_flow s key o = Some (s2, fr, out) /\ s' = (if fo_err out then set_closed s2 else s2).
Proof.
  intros El E. unfold app_call, on_flow in *. rewrite El in *.
  destruct (flow_step (cof key) fl o) as [[fl' fr0] out0]. injection E as <- _. eauto.
Qed.

Lemma sys_feedback s key k off len fin d extra s' obs :
  Calm s -> In (FrS off len fin d) (proj key (sy_pool s)) -> app_call s key (fb_op k off len fin d) extra = (s', obs) ->
  exists fl, alookup (sy_flows s) key = Some fl /\
    Calm s' /\ sy_pool s' = sy_pool s /\
    (forall k2, alookup (sy_flows s') k2 =
       if key =? k2 then Some (fst (fst (flow_step (cof key) fl (fb_op k off len fin d)))) else alookup (sy_flows s) k2) /\
    (k <> KAck -> osig s' = osig s).
Proof.
  intros Hc Hin E. pose proof Hc as (_ & _ & _ & HP).
  destruct (proj2 (HP _ _ (proj1 (in_proj _ _ _) Hin))) as [fl El]. exists fl. split; [exact El|].
  destruct (app_call_ok _ _ _ _ _ _ _ El E) as (s2 & fr & out & Eo & ->).
  destruct (on_flow_calm _ _ _ _ _ _ Hc Eo) as (fl0 & fl' & El0 & Est & Hr & Ef & Ep & Hcalm & Hos).
  rewrite El in El0. injection El0 as <-.
  destruct (feedback_step _ _ _ _ _ _ _ _ _ _ _ Hr Hin Est) as (-> & -> & Hr1 & _ & Hi).
  rewrite app_nil_r in Hcalm, Ep. split; [exact (Hcalm Hr1 (Forall_nil _))|].
  split; [exact Ep|]. split; [rewrite Est; exact Ef|]. intro Hn. exact (Hos (Hi Hn)).
Qed.

Lemma nth_mid {A} (pre post : list A) x : nthN (pre ++ x :: post) (lenN pre) = Some x.
Proof.
  unfold nthN, lenN. rewrite Nnat.Nat2N.id. rewrite nth_error_app2 by lia. now rewrite PeanoNat.Nat.sub_diag.
Qed.

Lemma run_snoc_fst c fl P ops o :
  fst (run c fl P (ops ++ [o])) = fst (fst (flow_step c (fst (run c fl P ops)) o)).
Proof.
  rewrite run_app. destruct (run c fl P ops) as [fl1 P1]. cbn [run fst].
  destruct (flow_step c fl1 o) as [[fl' new] out]. reflexivity.
Qed.

(* A phase walks the whole pool: [sys_fb k i] gives the feedback of kind [k] for the frame at index [i], a delivery
   after the server has learnt of the stream ([before]: STREAM frames travel with the flow), which touches neither
   flows nor pool. *)
Definition sys_fb (k : fkind) (i : N) : op :=
  match k with KDeliver => ODeliver i | KAck => OAck i | KLose => OLose i end.
Definition before (k : fkind) (s : sys) (key : N) : sys :=
  match k with KDeliver => if key_side key =? 0 then learn s (key_stream key) else s | _ => s end.
Definition fb_extra (k : fkind) : fout -> list Z := match k with KDeliver => fresh_extra | _ => no_extra end.
Definition seqN (n : nat) : list N := map N.of_nat (seq 0 n).

Lemma before_same k s key : same_fp s (before k s key) /\ sy_closed (before k s key) = sy_closed s.
Proof.
  destruct k; cbn [before]; try (split; [apply same_fp_refl|reflexivity]).
  destruct (key_side key =? 0); [|split; [apply same_fp_refl|reflexivity]].
  split; [apply same_fp_learn|]. unfold learn. destruct (nthN (sy_dirs s) (key_stream key)); try destruct (n =? 0); reflexivity.
Qed.

Lemma sys_fb_call k s i key off len fin d :
  sy_closed s = false -> nthN (sy_pool s) i = Some (key, FrS off len fin d) ->
  sys_step s (sys_fb k i) = app_call (before k s key) key (fb_op k off len fin d) (fb_extra k).
Proof. intros Hcl Hn. unfold sys_step. rewrite Hcl. destruct k; cbn [sys_fb]; rewrite Hn; reflexivity. Qed.

(* [walked k s0 s pre]: the frames [pre] of the pool of [s0] have had their feedback, which each flow has seen as
   the run of [fb_ops k] over its share of [pre] *)
Section Phase.
  Variable k : fkind.

  Definition walked (s0 s : sys) (pre : list (N * fframe)) : Prop :=
    sy_pool s = sy_pool s0 /\
    forall key fl0, alookup (sy_flows s0) key = Some fl0 ->
      alookup (sy_flows s) key =
        Some (fst (run (cof key) fl0 (proj key (sy_pool s0)) (flat_map (fb_ops k) (proj key pre)))).

  Lemma phase_walk s0 : forall post pre s,
    sy_pool s0 = pre ++ post -> Calm s -> walked s0 s pre ->
    let s' := sys_exec s (map (sys_fb k) (map N.of_nat (seq (length pre) (length post)))) in
    (Calm s' /\ walked s0 s' (pre ++ post)) /\ (k = KLose -> osig s' = osig s).
  Proof.
    induction post as [|[key f] post IH]; intros pre s Hp Hc Hw; cbn [length seq map sys_exec].
    - rewrite app_nil_r. auto.
    - destruct Hw as [Wp Wf]. pose proof Hc as (Hcl & _ & _ & HP).
      assert (Hin : In (key, f) (sy_pool s)) by (rewrite Wp, Hp; apply in_or_app; right; now left).
      destruct (HP _ _ Hin) as [(off & len & fin & d & ->) _].
      assert (Hn : nthN (sy_pool s) (N.of_nat (length pre)) = Some (key, FrS off len fin d)).
      { rewrite Wp, Hp. apply (nth_mid pre post (key, FrS off len fin d)). }
      rewrite (sys_fb_call k _ _ _ _ _ _ _ Hcl Hn). destruct (before_same k s key) as [L1 Ec1].
      destruct (app_call (before k s key) key _ (fb_extra k)) as [s2 obs] eqn:Ea. cbn [fst].
      pose proof (Calm_same _ _ L1 Ec1 Hc) as Hc1. destruct L1 as (Ef1 & Ep1 & _).
      assert (Hfb : In (FrS off len fin d) (proj key (sy_pool (before k s key))))
        by (rewrite Ep1; exact (proj2 (in_proj _ _ _) Hin)).
      destruct (sys_feedback _ _ _ _ _ _ _ _ _ _ Hc1 Hfb Ea) as (fl & El & Hc2 & Ep2 & Ef2 & Hos).
      (* the flow [key] has taken one more operation of its run, the other flows none *)
      assert (Hw2 : walked s0 s2 (pre ++ [(key, FrS off len fin d)])).
      { split; [congruence|]. intros k2 fl0 H0. rewrite proj_app, Ef2, Ef1.
        change [(key, FrS off len fin d)] with (map (fun f => (key, f)) [FrS off len fin d]). rewrite proj_tag.
        destruct (N.eqb_spec key k2) as [<-|NE].
        - rewrite flat_map_app. cbn [flat_map fb_ops]. rewrite app_nil_r, run_snoc_fst.
          rewrite Ef1, (Wf _ _ H0) in El. injection El as <-. reflexivity.
        - rewrite app_nil_r. apply Wf. exact H0. }
      specialize (IH (pre ++ [(key, FrS off len fin d)]) s2).
      rewrite app_length in IH. cbn [length] in IH. replace (length pre + 1)%nat with (S (length pre)) in IH by lia.
      rewrite <- app_assoc in IH. cbn [app] in IH. destruct (IH Hp Hc2 Hw2) as [A C].
      split; [exact A|]. intros ->. rewrite (C eq_refl), (Hos ltac:(discriminate)). reflexivity.
  Qed.

  Lemma phase_all s : Calm s ->
    let s' := sys_exec s (map (sys_fb k) (seqN (length (sy_pool s)))) in
    (Calm s' /\ walked s s' (sy_pool s)) /\ (k = KLose -> osig s' = osig s).
  Proof.
    intro Hc. apply (phase_walk s (sy_pool s) [] s eq_refl Hc).
    split; [reflexivity|intros key fl0 H0; cbn; exact H0].
  Qed.
End Phase.

Lemma deliver_op_ctl f : ~ is_frs f -> deliver_op f = [].
Proof. destruct f; [intro H; exfalso; apply H; unfold is_frs; eauto|reflexivity|reflexivity]. Qed.
Lemma ack_op_ctl f : ~ is_frs f -> ack_op f = [].
Proof. destruct f; [intro H; exfalso; apply H; unfold is_frs; eauto|reflexivity|reflexivity]. Qed.

(* the op lists of [phase_all] for the three kinds: [map (sys_fb KLose)] is [map OLose] and so on, by conversion *)
Definition lose_all (s : sys) : sys := sys_exec s (map OLose (seqN (length (sy_pool s)))).
Definition deliver_all (s : sys) : sys := sys_exec s (map ODeliver (seqN (length (sy_pool s)))).
Definition ack_all (s : sys) : sys := sys_exec s (map OAck (seqN (length (sy_pool s)))).

(* [walked KDeliver], spelt out *)
Definition delivered_upto (s0 s : sys) (pre : list (N * fframe)) : Prop :=
  sy_pool s = sy_pool s0 /\
  forall key fl0, alookup (sy_flows s0) key = Some fl0 ->
    alookup (sy_flows s) key =
      Some (fst (run (cof key) fl0 (proj key (sy_pool s0)) (flat_map deliver_op (proj key pre)))).

Lemma lose_all_spec s : Calm s -> Calm (lose_all s) /\ osig (lose_all s) = osig s.
Proof. intro Hc. destruct (phase_all KLose s Hc) as [[A _] B]. exact (conj A (B eq_refl)). Qed.

Lemma deliver_all_spec s : Calm s -> Calm (deliver_all s) /\ delivered_upto s (deliver_all s) (sy_pool s).
Proof. intro Hc. exact (proj1 (phase_all KDeliver s Hc)). Qed.

Lemma ack_all_spec s : Calm s -> Calm (ack_all s) /\ walked KAck s (ack_all s) (sy_pool s).
Proof. intro Hc. exact (proj1 (phase_all KAck s Hc)). Qed.

Lemma sys_finish s key : Calm s -> drained_in s key ->
  exists fl4, alookup (sy_flows (ack_all (deliver_all s))) key = Some fl4 /\ flow_done fl4.
Proof.
  intros Hc (fl & El & Hd).
  destruct (finish _ _ _ (calm_round_ok _ _ _ Hc El) Hd) as (fl3 & fl4 & R1 & R2 & Hdone & _).
  destruct (deliver_all_spec s Hc) as (Hc3 & Hp3 & Hf3).
  destruct (ack_all_spec _ Hc3) as (_ & _ & Hf4).
  specialize (Hf3 _ _ El). rewrite R1 in Hf3. cbn [fst] in Hf3.
  specialize (Hf4 _ _ Hf3). change (fb_ops KAck) with ack_op in Hf4. rewrite Hp3, R2 in Hf4. cbn [fst] in Hf4. eauto.
Qed.

Lemma vsz_le v : StreamCtl.vsz v <= 8.
Proof. unfold StreamCtl.vsz. destruct (v <? 64); [lia|]. destruct (v <? 16384); [lia|]. destruct (v <? 1073741824); lia. Qed.

Lemma good_pred_packet cap sid tok : 26 <= cap -> cap < two62 -> 1 <= tok -> good_pred (pred_of_packet cap sid tok).
Proof.
  intros Hc Hc2 Ht o. unfold pred_of_packet, StreamCtl.est_cap, StreamCtl.frame_least.
  pose proof (vsz_le sid). pose proof (vsz_le o).
  set (least := 1 + StreamCtl.vsz sid + (if o =? 0 then 0 else StreamCtl.vsz o)).
  assert (least <= 17) by (unfold least; destruct (o =? 0); lia).
  destruct (N.leb_spec cap least); [lia|]. eexists. split; [reflexivity|]. lia.
Qed.

Lemma sys_try_step s key cap sid tok credit s1 fr out :
  Calm s -> 1 <= tok -> on_flow s key (FTry (pred_of_packet cap sid tok) credit) = Some (s1, fr, out) ->
  emits s s1 /\ (26 <= cap -> cap < two62 -> credit <> 0 -> fo_pick out = None -> drained_in s1 key).
Proof.
  intros Hc Ht Eo. pose proof (pred_of_packet_pos cap sid tok Ht) as Hp.
  destruct (on_flow_calm _ _ _ _ _ _ Hc Eo) as (fl & fl' & El & Est & Hr & At & _ & Hcalm & Hos).
  destruct (try_step _ _ _ _ _ _ _ _ Hr Hp Est) as (Hr1 & Efr & Hi & Hkd & Hnd).
  assert (El1 : alookup (sy_flows s1) key = Some fl') by (rewrite At, N.eqb_refl; reflexivity).
  split; [split; [|split; [exact (Hos Hi)|]]|].
  - apply Hcalm; [exact Hr1|]. rewrite Efr. destruct (fo_pick out); constructor; [unfold is_frs; eauto|constructor].
  - intros k2 (fl2 & E2 & Hd). unfold drained_in. rewrite At. destruct (N.eqb_spec key k2) as [<-|NE]; [|eauto].
    rewrite El in E2. injection E2 as <-. exists fl'. split; [reflexivity|exact (proj2 (Hkd Hd))].
  - intros Hcap Hcap2 Hcr Hn. exists fl'. split; [exact El1|].
    exact (Hnd (good_pred_packet _ _ _ Hcap Hcap2 Ht) Hcr Hn).
Qed.

Lemma emit_spec s side cap flowlim s' r :
  Calm s -> emit s side cap flowlim = (s', r) ->
  emits s s' /\
  (r = None -> 26 <= cap -> cap < two62 -> flowlim <> 0 ->
   forall key, listed s side key -> (exists fl, alookup (sy_flows s) key = Some fl) -> drained_in s' key).
Proof.
  intros Hc E. unfold emit in E.
  destruct (N.ltb_spec cap StreamCtl.STREAM_FRAME_MAX) as [Hlt|_].
  { injection E as <- <-. split; [exact (emits_refl _ Hc)|].
    intros _ Hcap. unfold StreamCtl.STREAM_FRAME_MAX in Hlt. lia. }
  destruct (try_streams s (outgoing_keys s side) _ cap (N.min flowlim cap)) as [s1 r1] eqn:Et.
  (* every attempt keeps the system calm, the output sets and what is drained *)
  destruct (try_streams_out _ cap (N.min flowlim cap) _ (fun a b => Calm a -> emits a b) emits_refl
              (fun a b c H1 H2 Ha => emits_trans _ _ _ (H1 Ha) (H2 (proj1 (H1 Ha))))
              (fun a sid tok key b fr out Ht Eo Ha => proj1 (sys_try_step _ _ _ _ _ _ _ _ _ Ha Ht Eo))
              _ _ _ _ (load_order_tokens _ _ _) Et) as [A D].
  specialize (A Hc).
  destruct r1 as [[[[k0 sid0] tok0] p0]|]; injection E as <- <-.
  - split; [|discriminate]. apply (emits_trans _ _ _ A). destruct A as (A & _).
    assert (L : forall c, sy_flows (set_cursor s1 side c) = sy_flows s1) by (intro c; exact (proj1 (same_fp_cursor s1 side c))).
    split; [|split; [unfold osig; rewrite L; unfold set_cursor; destruct (side =? 0); reflexivity|]].
    + apply (Calm_same s1); [apply same_fp_cursor| |exact A]. unfold set_cursor; destruct (side =? 0); reflexivity.
    + intros key (fl & El & Hd). exists fl. rewrite L. auto.
  - split; [exact A|]. intros _ Hcap Hcap2 Hfl key [sid Hs] El.
    destruct (load_order_visits (sy_rot s) (if side =? 0 then sy_cur0 s else sy_cur1 s) _ _ (alookup_key _ _ _ Hs)) as (tok & Ht & Htok).
    destruct (D eq_refl _ _ _ Ht Hs) as (s2 & K & [Hn|(s3 & fr & out & Eo & Ep & K2)]); specialize (K Hc).
    + destruct (emits_flow _ _ _ K El) as [fl Hf]. congruence.
    + (* the attempt found nothing to send, and later attempts do not undo that *)
      destruct (sys_try_step _ _ _ _ _ _ _ _ _ (proj1 K) Htok Eo) as [Hs1 Hd1].
      exact (emits_drained _ _ _ (K2 (proj1 Hs1)) (Hd1 Hcap Hcap2 ltac:(lia) Ep)).
Qed.

(* [emits s2 a1]: the emission of the server that finds nothing may come after further emissions *)
Lemma emits_none_finish a0 s2 a1 s3 cap :
  Calm a0 -> 26 <= cap -> cap < two62 -> emit a0 0 cap cap = (s2, None) ->
  emits s2 a1 -> emit a1 1 cap cap = (s3, None) ->
  forall key fl, alookup (sy_flows a0) key = Some fl ->
    (sn_inset (fl_snd fl) = false \/ listed a0 0 key \/ listed a1 1 key) ->
    exists fl4, alookup (sy_flows (ack_all (deliver_all s3))) key = Some fl4 /\ flow_done fl4.
Proof.
  intros Hc0 Hcap Hcap2 E0 K E1 key fl El Hl. assert (Hnz : cap <> 0) by lia.
  destruct (emit_spec _ _ _ _ _ _ Hc0 E0) as [K0 D0].
  destruct (emit_spec _ _ _ _ _ _ (proj1 K) E1) as [K1 D1].
  assert (Hfl : exists fl, alookup (sy_flows a0) key = Some fl) by eauto.
  apply (sys_finish s3 key (proj1 K1)).
  destruct Hl as [Hl|[Hl|Hl]].
  - apply (emits_drained _ _ _ K1), (emits_drained _ _ _ K), (emits_drained _ _ _ K0).
    exists fl. split; [exact El|exact (not_inset_drained _ _ _ (calm_round_ok _ _ _ Hc0 El) Hl)].
  - exact (emits_drained _ _ _ K1 (emits_drained _ _ _ K (D0 eq_refl Hcap Hcap2 Hnz _ Hl Hfl))).
  - exact (D1 eq_refl Hcap Hcap2 Hnz _ Hl (emits_flow _ _ _ K (emits_flow _ _ _ K0 Hfl))).
Qed.

Lemma p_c01_progress_system_core : forall s cap s1 s2,
  Calm s -> 26 <= cap -> cap < two62 ->
  emit s 0 cap cap = (s1, None) -> emit s1 1 cap cap = (s2, None) ->
  forall key fl, alookup (sy_flows s) key = Some fl ->
    (sn_inset (fl_snd fl) = false \/ listed s 0 key \/ listed s1 1 key) ->
    exists fl4, alookup (sy_flows (ack_all (deliver_all s2))) key = Some fl4 /\ flow_done fl4.
Proof.
  intros s cap s1 s2 Hc Hcap Hcap2 E0 E1.
  exact (emits_none_finish s s1 s1 s2 cap Hc Hcap Hcap2 E0 (emits_refl _ (proj1 (proj1 (emit_spec _ _ _ _ _ _ Hc E0)))) E1).
Qed.

(* the boolean: the loop ended on an emission that found nothing, not on the fuel *)
Fixpoint sys_emit_loop (fuel : nat) (s : sys) (side cap : N) : sys * bool :=
  match fuel with
  | O => (s, false)
  | S k => match emit s side cap cap with
           | (s', Some _) => sys_emit_loop k s' side cap
           | (s', None) => (s', true)
           end
  end.

(* when the loop ends on an emission that found nothing, [s0] is where that one started *)
Lemma sys_emit_loop_spec side cap : forall fuel s s' ok,
  Calm s -> sys_emit_loop fuel s side cap = (s', ok) ->
  emits s s' /\ (ok = true -> exists s0, emits s s0 /\ emit s0 side cap cap = (s', None)).
Proof.
  induction fuel as [|k IH]; intros s s' ok Hc E; cbn [sys_emit_loop] in E;
    [injection E as <- <-; split; [exact (emits_refl _ Hc)|discriminate]|].
  destruct (emit s side cap cap) as [s1 [r|]] eqn:Ee; destruct (emit_spec _ _ _ _ _ _ Hc Ee) as [H1 _].
  - destruct (IH _ _ _ (proj1 H1) E) as [A B]. split; [exact (emits_trans _ _ _ H1 A)|].
    intro Hok. destruct (B Hok) as (s0 & B1 & B2). exists s0. split; [exact (emits_trans _ _ _ H1 B1)|exact B2].
  - injection E as <- <-. split; [exact H1|]. intros _. exists s. split; [exact (emits_refl _ Hc)|exact Ee].
Qed.

Definition sys_round (fuel : nat) (cap : N) (s : sys) : sys * bool :=
  let s1 := lose_all s in
  let '(s2, ok0) := sys_emit_loop fuel s1 0 cap in
  let '(s3, ok1) := sys_emit_loop fuel s2 1 cap in
  (ack_all (deliver_all s3), ok0 && ok1).

(* The good round on the two endpoints.  From every calm state, for every fuel that suffices (the
   boolean), every flow that is a member of the output set of its side at the start of the round,
   or that has already left it, ends [flow_done]. *)
Lemma p_c01_progress_system : forall fuel cap s s',
  Calm s -> 26 <= cap -> cap < two62 -> sys_round fuel cap s = (s', true) ->
  forall key fl, alookup (sy_flows s) key = Some fl ->
    (sn_inset (fl_snd fl) = false \/ listed s 0 key \/ listed s 1 key) ->
    exists fl', alookup (sy_flows s') key = Some fl' /\ flow_done fl'.
Proof.
  intros fuel cap s s' Hc Hcap Hcap2 E key fl El Hl. unfold sys_round in E.
  destruct (lose_all_spec s Hc) as [Hc1 Ho1].
  destruct (sys_emit_loop fuel (lose_all s) 0 cap) as [s2 ok0] eqn:E0.
  destruct (sys_emit_loop fuel s2 1 cap) as [s3 ok1] eqn:E1. injection E as <- Hok.
  apply andb_true_iff in Hok. destruct Hok as [-> ->].
  (* the last emission of each side found nothing: [a0], [a1] are the states it started from *)
  destruct (proj2 (sys_emit_loop_spec _ _ _ _ _ _ Hc1 E0) eq_refl) as (a0 & Ka0 & Ea0).
  destruct (emit_spec _ _ _ _ _ _ (proj1 Ka0) Ea0) as [K2 _].
  destruct (proj2 (sys_emit_loop_spec _ _ _ _ _ _ (proj1 K2) E1) eq_refl) as (a1 & Ka1 & Ea1).
  assert (Osa0 : osig s = osig a0) by (rewrite (proj1 (proj2 Ka0)); exact (eq_sym Ho1)).
  assert (Osa1 : osig s = osig a1) by (rewrite (proj1 (proj2 Ka1)), (proj1 (proj2 K2)); exact Osa0).
  destruct (osig_lookup _ _ _ _ Osa0 El) as (fa0 & Fa0 & Ia0).
  apply (emits_none_finish a0 s2 a1 s3 cap (proj1 Ka0) Hcap Hcap2 Ea0 Ka1 Ea1 key fa0 Fa0).
  destruct Hl as [Hl|[Hl|Hl]]; [left; congruence|right; left|right; right]; eapply listed_osig; eauto.
Qed.

Lemma init_flows_keys w : forall dirs j0 k, In k (map fst (init_flows w dirs j0)) -> j0 <= k / 2 /\ k / 2 < j0 + lenN dirs.
Proof.
  induction dirs as [|d t IH]; intros j0 k; cbn [init_flows map fst]; [intros []|].
  rewrite lenN_cons. intros [H|H].
  - subst k. replace (2 * j0 / 2) with j0 by (symmetry; rewrite N.mul_comm; apply N.div_mul; lia). lia.
  - destruct (d =? 0); cbn [app map fst] in H.
    + destruct H as [H|H].
      * subst k. replace ((2 * j0 + 1) / 2) with j0; [lia|]. symmetry. rewrite N.mul_comm. rewrite N.div_add_l by lia. cbn. lia.
      * destruct (IH _ _ H). lia.
    + destruct (IH _ _ H). lia.
Qed.

Lemma count_dir_lt d : forall dirs j1 j2, (j1 < j2)%nat -> nth_error dirs j1 = Some d ->
  count_dir dirs d j1 < count_dir dirs d j2.
Proof.
  induction dirs as [|x t IH]; intros j1 j2 Hlt Hn; [destruct j1; discriminate|].
  destruct j2 as [|j2]; [lia|]. destruct j1 as [|j1]; cbn [nth_error count_dir] in *.
  - injection Hn as ->. rewrite N.eqb_refl. lia.
  - specialize (IH j1 j2 ltac:(lia) Hn). lia.
Qed.

Lemma sid_of_stream_inj dirs j1 j2 :
  Forall (fun d => d = 0 \/ d = 1) dirs -> j1 < lenN dirs -> j2 < lenN dirs ->
  sid_of_stream dirs j1 = sid_of_stream dirs j2 -> j1 = j2.
Proof.
  intros Hd H1 H2 E. unfold sid_of_stream, idx_of, nthN, lenN in *.
  destruct (nth_error dirs (N.to_nat j1)) as [d1|] eqn:E1; [|apply nth_error_None in E1; lia].
  destruct (nth_error dirs (N.to_nat j2)) as [d2|] eqn:E2; [|apply nth_error_None in E2; lia].
  rewrite Forall_forall in Hd. pose proof (Hd _ (nth_error_In _ _ E1)) as D1. pose proof (Hd _ (nth_error_In _ _ E2)) as D2.
  unfold Sid.sid_of, Sid.dir_bit, Sid.role_bit in E.
  assert (Hdd : d1 = d2).
  { destruct D1 as [->| ->]; destruct D2 as [->| ->]; cbn in E; try reflexivity; lia. }
  subst d2.
  assert (Hc : count_dir dirs d1 (N.to_nat j1) = count_dir dirs d1 (N.to_nat j2)).
  { destruct D1 as [->| ->]; cbn in E; lia. }
  destruct (PeanoNat.Nat.lt_trichotomy (N.to_nat j1) (N.to_nat j2)) as [H|[H|H]]; [|lia|].
  - pose proof (count_dir_lt d1 dirs _ _ H E1). lia.
  - pose proof (count_dir_lt d1 dirs _ _ H E2). lia.
Qed.

Lemma listed_of_flow s key fl :
  Forall (fun d => d = 0 \/ d = 1) (sy_dirs s) ->
  (forall k, In k (map fst (sy_flows s)) -> key_stream k < lenN (sy_dirs s)) ->
  alookup (sy_flows s) key = Some fl -> sn_inset (fl_snd fl) = true ->
  (key_side key = 0 \/ known s (key_stream key) = true) -> listed s (key_side key) key.
Proof.
  intros Hd Hk El Hi Hkn. exists (sid_of_stream (sy_dirs s) (key_stream key)). unfold outgoing_keys.
  refine (alookup_fold_ainsert _ _ fst (key, fl) _ (alookup_In _ _ _ El) _ _).
  - cbn [fst snd]. rewrite N.eqb_refl, Hi. cbn [andb]. destruct Hkn as [->| ->]; [reflexivity|apply orb_true_r].
  - (* another member of the output set with the same stream id is the same stream, and on the same side *)
    intros [k1 f1] H1 C1 Es. cbn [fst snd] in *.
    apply andb_true_iff in C1. destruct C1 as [C1 _]. apply andb_true_iff in C1. destruct C1 as [C1 _]. apply N.eqb_eq in C1.
    assert (J : key_stream k1 = key_stream key).
    { apply (sid_of_stream_inj (sy_dirs s)); [exact Hd| | |exact Es]; apply Hk; [apply (in_map fst _ _ H1)|exact (alookup_key _ _ _ El)]. }
    unfold key_side, key_stream in *.
    rewrite (N.div_mod k1 2), (N.div_mod key 2), J, C1 by discriminate. reflexivity.
Qed.

(* the round from any calm state the two endpoints can reach *)
Lemma p_c01_progress_reachable : forall rot w dirs ops fuel cap s',
  Forall (fun d => d = 0 \/ d = 1) dirs ->
  let s := sys_exec (sys_init rot w dirs) ops in
  sy_closed s = false ->
  (forall key fl, alookup (sy_flows s) key = Some fl -> ~ is_reset (fl_snd fl) /\ wr (fl_snd fl) <= md (fl_snd fl)) ->
  (forall key f, In (key, f) (sy_pool s) -> is_frs f) ->
  26 <= cap -> cap < two62 -> sys_round fuel cap s = (s', true) ->
  forall key fl, alookup (sy_flows s) key = Some fl ->
    (key_side key = 0 \/ known s (key_stream key) = true \/ sn_inset (fl_snd fl) = false) ->
    exists fl', alookup (sy_flows s') key = Some fl' /\ flow_done fl'.
Proof.
  intros rot w dirs ops fuel cap s' Hd s Hcl Hq Hp Hcap Hcap2 E key fl El Hact.
  destruct (sys_exec_kinv ops (sys_init rot w dirs)) as (K1 & K2 & K3). fold s in K1, K2, K3.
  assert (HPK : PK s) by (apply K3; intros k f []).
  assert (Hc : Calm s).
  { split; [exact Hcl|]. split; [exact (sys_exec_inv ops _ (SysInv_init rot w dirs))|]. split; [exact Hq|].
    intros k f Hin. split; [eapply Hp; eauto|apply in_alookup; eapply HPK; eauto]. }
  apply (p_c01_progress_system fuel cap s s' Hc Hcap Hcap2 E key fl El).
  destruct (sn_inset (fl_snd fl)) eqn:Ei; [|now left]. right.
  assert (Hks : forall k, In k (map fst (sy_flows s)) -> key_stream k < lenN (sy_dirs s)).
  { intros k Hin. rewrite K1, K2 in *. cbn [sys_init sy_flows sy_dirs] in *.
    destruct (init_flows_keys _ _ _ _ Hin). unfold key_stream. lia. }
  assert (Hd' : Forall (fun d => d = 0 \/ d = 1) (sy_dirs s)) by (rewrite K2; exact Hd).
  assert (Hside : key_side key = 0 \/ key_side key = 1).
  { unfold key_side. assert (Hm : key mod 2 < 2) by (apply N.mod_upper_bound; discriminate).
    remember (key mod 2) as m. clear Heqm. lia. }
  assert (L : listed s (key_side key) key).
  { apply (listed_of_flow s key fl Hd' Hks El Ei). destruct Hact as [H|[H|H]]; [now left|now right|congruence]. }
  destruct Hside as [H|H]; rewrite H in L; [now left|now right].
Qed.
