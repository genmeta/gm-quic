(* Proofs about Model/Sid.v: local allocation bound, remote acceptance bound (F14), implicit opens,
   the advertised MAX_STREAMS limit (F27). *)
From Coq Require Import List NArith Bool Lia FinFun.
From GQ Require Import Model.Sid.
Import ListNotations.
Local Open Scope N_scope.
Local Arguments N.sub : simpl never.

Lemma dir_dec (a b : dir) : {a = b} + {a <> b}.
Proof. decide equality. Qed.

Lemma role_eqb_spec a b : reflect (a = b) (role_eqb a b).
Proof. destruct a, b; constructor; congruence. Qed.

Lemma pget_pset_same p d v : pget (pset p d v) d = v.
Proof. destruct d; reflexivity. Qed.

Lemma pget_pset_other p d d' v : d <> d' -> pget (pset p d v) d' = pget p d'.
Proof. destruct d, d'; intro H; try reflexivity; congruence. Qed.

Lemma sid_of_idx r d i : sid_idx (sid_of r d i) = i.
Proof.
  unfold sid_idx, sid_of. rewrite <- N.add_assoc, N.div_add_l by discriminate.
  destruct r, d; apply N.add_0_r.
Qed.

Lemma sid_arith i b c : b < 2 -> c < 2 ->
  (i * 4 + b * 2 + c) mod 2 = c /\ ((i * 4 + b * 2 + c) / 2) mod 2 = b.
Proof.
  intros Hb Hc.
  replace (i * 4 + b * 2 + c) with (c + (2 * i + b) * 2) by lia.
  rewrite N.mod_add by lia. rewrite N.div_add by lia.
  rewrite (N.mod_small c 2) by lia. rewrite (N.div_small c 2) by lia.
  split; [reflexivity|].
  replace (0 + (2 * i + b)) with (b + i * 2) by lia.
  rewrite N.mod_add by lia. apply N.mod_small; lia.
Qed.

Lemma sid_of_role r d i : sid_role (sid_of r d i) = r.
Proof.
  unfold sid_role, sid_of.
  destruct (sid_arith i (dir_bit d) (role_bit r)) as [H _]; [destruct d; cbn; lia|destruct r; cbn; lia|].
  rewrite H. destruct r; reflexivity.
Qed.

Lemma sid_of_dir r d i : sid_dir (sid_of r d i) = d.
Proof.
  unfold sid_dir, sid_of.
  destruct (sid_arith i (dir_bit d) (role_bit r)) as [_ H]; [destruct d; cbn; lia|destruct r; cbn; lia|].
  rewrite H. destruct d; reflexivity.
Qed.

Inductive lop := LAlloc (d : dir) | LIncrease (d : dir) (v : N) | LRevise (rejected : bool) (bi uni : N).

Definition l_step (r : role) (s : lsid) (o : lop) : lsid * option N :=
  match o with
  | LAlloc d => let '(s', res) := poll_alloc_sid r s d in
                (s', match res with AllocSid sid => Some sid | _ => None end)
  | LIncrease d v => (match increase_limit s d v with Some s' => s' | None => s end, None)
  | LRevise rej bi uni => (match revise_max_streams s rej bi uni with Some s' => s' | None => s end, None)
  end.

Fixpoint l_exec (r : role) (s : lsid) (ops : list lop) : lsid * list N :=
  match ops with
  | [] => (s, [])
  | o :: rest =>
    let '(s1, out) := l_step r s o in
    let '(s2, outs) := l_exec r s1 rest in
    (s2, match out with Some sid => sid :: outs | None => outs end)
  end.

Definition no_reject (o : lop) : Prop := match o with LRevise true _ _ => False | _ => True end.

Definition Linv (s : lsid) : Prop := forall d, pget (l_next s) d <= pget (l_max s) d.

Lemma alloc_spec r s d s' res :
  poll_alloc_sid r s d = (s', res) ->
  match res with
  | AllocSid sid => sid = sid_of r d (pget (l_next s) d) /\ pget (l_next s) d < pget (l_max s) d
                    /\ l_next s' = pset (l_next s) d (pget (l_next s) d + 1) /\ l_max s' = l_max s
  | AllocPending m => s' = s /\ m = pget (l_max s) d /\ pget (l_max s) d <= pget (l_next s) d
  | AllocNone => s' = s
  end.
Proof.
  unfold poll_alloc_sid. intros H.
  destruct (N.ltb_spec MAX_STREAMS_LIMIT (pget (l_next s) d)).
  - injection H as <- <-; reflexivity.
  - destruct (N.ltb_spec (pget (l_next s) d) (pget (l_max s) d)); injection H as <- <-; cbn; auto.
Qed.

Lemma increase_limit_eq s d v :
  increase_limit s d v
  = if MAX_STREAMS_LIMIT <? v then None
    else Some (mklsid (pset (l_max s) d (N.max (pget (l_max s) d) v)) (l_next s)).
Proof.
  unfold increase_limit. destruct (MAX_STREAMS_LIMIT <? v); [reflexivity|].
  destruct (N.ltb_spec (pget (l_max s) d) v).
  - rewrite N.max_r by lia. reflexivity.
  - rewrite N.max_l by lia. destruct s as [[a b] n], d; reflexivity.
Qed.

Lemma revise_eq s bi uni :
  revise_max_streams s false bi uni
  = if (MAX_STREAMS_LIMIT <? bi) || (MAX_STREAMS_LIMIT <? uni) then None
    else Some (mklsid (N.max (fst (l_max s)) bi, N.max (snd (l_max s)) uni) (l_next s)).
Proof.
  unfold revise_max_streams. rewrite increase_limit_eq. destruct (MAX_STREAMS_LIMIT <? bi); [reflexivity|].
  rewrite increase_limit_eq. destruct (MAX_STREAMS_LIMIT <? uni); reflexivity.
Qed.

Lemma Linv_step r s o : no_reject o -> Linv s -> Linv (fst (l_step r s o)).
Proof.
  intros NR I. destruct o as [d|d v|rej bi uni]; cbn [l_step].
  - destruct (poll_alloc_sid r s d) as [s' res] eqn:E. cbn.
    pose proof (alloc_spec _ _ _ _ _ E) as A. destruct res.
    + subst; assumption.
    + destruct A as (_ & Hlt & Hn & Hm). intro d'. specialize (I d'). rewrite Hn, Hm.
      destruct d, d'; cbn in *; lia.
    + destruct A as (-> & _); assumption.
  - rewrite increase_limit_eq. destruct (_ <? _); cbn [fst]; [assumption|].
    intro d'. specialize (I d'). destruct d, d'; cbn in *; lia.
  - destruct rej; [contradiction|]. rewrite revise_eq. destruct (_ || _); cbn [fst]; [assumption|].
    intro d. specialize (I d). destruct d; cbn in *; lia.
Qed.

(* the limit in force is the largest value the peer ever granted (outside 0-RTT rejection) *)
Fixpoint granted (m : N) (d : dir) (ops : list lop) : N :=
  match ops with
  | [] => m
  | LIncrease d' v :: rest =>
    granted (if dir_eqb d d' && (v <=? MAX_STREAMS_LIMIT) then N.max m v else m) d rest
  | LRevise false bi uni :: rest =>
    let v := match d with Bi => bi | Uni => uni end in
    granted (if (bi <=? MAX_STREAMS_LIMIT) && (uni <=? MAX_STREAMS_LIMIT) then N.max m v else m) d rest
  | _ :: rest => granted m d rest
  end.

Lemma p_c12_open_limit_is_granted r ops s d :
  Forall no_reject ops -> pget (l_max (fst (l_exec r s ops))) d = granted (pget (l_max s) d) d ops.
Proof.
  revert s. induction ops as [|o rest IH]; intros s F; [reflexivity|].
  inversion F as [|o' rest' NR F']; subst. cbn [l_exec].
  destruct (l_step r s o) as [s1 out] eqn:E1. destruct (l_exec r s1 rest) as [s2 outs] eqn:E2.
  cbn [fst]. specialize (IH s1 F'). rewrite E2 in IH. cbn [fst] in IH. rewrite IH. clear IH E2.
  destruct o as [d'|d' v|rej bi uni]; cbn [l_step] in E1; cbn [granted]; f_equal.
  - destruct (poll_alloc_sid r s d') as [s' res] eqn:E. injection E1 as <- _.
    pose proof (alloc_spec _ _ _ _ _ E) as A. destruct res.
    + subst; reflexivity.
    + destruct A as (_ & _ & _ & ->). reflexivity.
    + destruct A as (-> & _). reflexivity.
  - injection E1 as <- _. rewrite increase_limit_eq, N.leb_antisym.
    destruct (MAX_STREAMS_LIMIT <? v); [rewrite andb_false_r; reflexivity|]. destruct d, d'; reflexivity.
  - destruct rej; [contradiction|]. injection E1 as <- _. rewrite revise_eq, !N.leb_antisym, <- negb_orb.
    destruct (_ || _); [reflexivity|]. destruct d; reflexivity.
Qed.

Lemma try_accept_spec strict mono s d idx s' res up :
  try_accept_sid strict mono s d idx = (s', res, up) ->
  match res with
  | AccExceed m => s' = s /\ m = pget (r_max s) d /\ over_limit strict idx m = true
  | AccOld => s' = s /\ idx < pget (r_next s) d /\ over_limit strict idx (pget (r_max s) d) = false
  | AccNew first last =>
      first = pget (r_next s) d /\ last = idx /\ first <= idx
      /\ over_limit strict idx (pget (r_max s) d) = false
      /\ r_next s' = pset (r_next s) d (idx + 1) /\ r_max s' = r_max s /\ up = None
  end.
Proof.
  unfold try_accept_sid. intros H.
  destruct (over_limit strict idx (pget (r_max s) d)) eqn:O.
  - injection H as <- <- <-. auto.
  - destruct (N.ltb_spec idx (pget (r_next s) d)).
    + injection H as <- <- <-. auto.
    + unfold ctrl_on_accept, apply_up in H. injection H as <- <- <-. cbn. repeat split; auto.
Qed.

Lemma accept_within strict mono s d idx s' res up :
  try_accept_sid strict mono s d idx = (s', res, up) ->
  (forall m, res <> AccExceed m) -> over_limit strict idx (pget (r_max s) d) = false.
Proof.
  intros H NE. pose proof (try_accept_spec _ _ _ _ _ _ _ _ H) as A.
  destruct res as [m| |first last]; [destruct (NE m eq_refl)|apply A|apply A].
Qed.

(* component = RemoteStreamIds + the listener queue of one connection, per direction;
   ops: a peer frame naming index idx, an accept call, end of a stream, STREAMS_BLOCKED *)
Inductive rop := RUse (d : dir) (idx : N) | RPop (d : dir) | REnd (d : dir) (idx : N) | RBlocked (d : dir) (v : N).

Record rl := mkrl { rl_s : rsid; rl_q : list N * list N; rl_y : list N * list N }.

Definition qget (p : list N * list N) (d : dir) : list N := match d with Bi => fst p | Uni => snd p end.
Definition qset (p : list N * list N) (d : dir) (v : list N) : list N * list N :=
  match d with Bi => (v, snd p) | Uni => (fst p, v) end.

Definition rl_step (strict mono : bool) (peer : role) (x : rl) (o : rop) : rl :=
  match o with
  | RUse d idx =>
    let '(s', res, _) := try_accept_sid strict mono (rl_s x) d idx in
    match res with
    | AccNew first last =>
      mkrl s' (qset (rl_q x) d (qget (rl_q x) d ++ map (sid_of peer d) (need_create first last))) (rl_y x)
    | _ => mkrl s' (rl_q x) (rl_y x)
    end
  | RPop d =>
    match qget (rl_q x) d with
    | [] => x
    | sid :: q => mkrl (rl_s x) (qset (rl_q x) d q) (qset (rl_y x) d (qget (rl_y x) d ++ [sid]))
    end
  | REnd d idx => mkrl (fst (on_end_of_stream mono (rl_s x) d idx)) (rl_q x) (rl_y x)
  | RBlocked d v => mkrl (fst (recv_streams_blocked mono (rl_s x) d v)) (rl_q x) (rl_y x)
  end.

Definition rl_exec strict mono peer := fold_left (rl_step strict mono peer).

(* rl_y: the ids accept has yielded; rl_q: those still queued *)
Definition Rinv (peer : role) (x : rl) : Prop :=
  forall d, qget (rl_y x) d ++ qget (rl_q x) d
            = map (sid_of peer d) (range_nat 0 (N.to_nat (pget (r_next (rl_s x)) d))).

Lemma range_nat_app a n m : range_nat a (n + m) = range_nat a n ++ range_nat (a + N.of_nat n) m.
Proof.
  revert a. induction n as [|n IH]; intro a; cbn [range_nat plus app].
  - f_equal. lia.
  - f_equal. rewrite IH. do 2 f_equal. lia.
Qed.

Lemma qget_qset_same p d v : qget (qset p d v) d = v.
Proof. destruct d; reflexivity. Qed.

Lemma qget_qset_other p d d' v : d <> d' -> qget (qset p d v) d' = qget p d'.
Proof. destruct d, d'; intro; try reflexivity; congruence. Qed.

Lemma end_next mono s d idx : r_next (fst (on_end_of_stream mono s d idx)) = r_next s.
Proof. unfold on_end_of_stream. destruct (ctrl_on_end (r_ctrl s) d idx) as [c up]. destruct (apply_up mono (r_max s) d up). reflexivity. Qed.

Lemma blocked_next mono s d v : r_next (fst (recv_streams_blocked mono s d v)) = r_next s.
Proof.
  unfold recv_streams_blocked. destruct (mono && _); [reflexivity|].
  destruct (ctrl_on_blocked _ _ _) as [c up]. destruct (apply_up mono (r_max s) d up). reflexivity.
Qed.

Lemma Rinv_step strict mono peer x o : Rinv peer x -> Rinv peer (rl_step strict mono peer x o).
Proof.
  intros I. destruct o as [d idx|d|d idx|d v]; cbn [rl_step].
  - destruct (try_accept_sid strict mono (rl_s x) d idx) as [[s' res] up] eqn:E.
    pose proof (try_accept_spec _ _ _ _ _ _ _ _ E) as A. destruct res.
    + destruct A as (-> & _). exact I.
    + destruct A as (-> & _). exact I.
    + destruct A as (-> & -> & Hle & _ & Hn & _ & _). intro d'. cbn [rl_s rl_q rl_y].
      destruct (dir_dec d d') as [<-|Hd].
      * rewrite qget_qset_same, Hn, pget_pset_same, app_assoc, (I d), <- map_app. f_equal.
        unfold need_create.
        replace (N.to_nat (idx + 1)) with (N.to_nat (pget (r_next (rl_s x)) d) + N.to_nat (idx + 1 - pget (r_next (rl_s x)) d))%nat by lia.
        rewrite range_nat_app. do 2 f_equal. lia.
      * rewrite qget_qset_other by assumption. rewrite Hn, pget_pset_other by assumption. apply I.
  - destruct (qget (rl_q x) d) as [|sid q] eqn:Q; [exact I|].
    intro d'. cbn [rl_s rl_q rl_y]. destruct (dir_dec d d') as [<-|Hd].
    + rewrite !qget_qset_same, <- app_assoc. cbn [app]. rewrite <- Q. apply I.
    + rewrite !qget_qset_other by assumption. apply I.
  - intro d'. cbn [rl_s rl_q rl_y]. rewrite end_next. apply I.
  - intro d'. cbn [rl_s rl_q rl_y]. rewrite blocked_next. apply I.
Qed.

Lemma Rinv_exec strict mono peer ops x : Rinv peer x -> Rinv peer (rl_exec strict mono peer ops x).
Proof.
  unfold rl_exec. revert x. induction ops as [|o rest IH]; intros x I; cbn [fold_left]; [exact I|].
  apply IH. apply Rinv_step. exact I.
Qed.

Definition rl_init (s : rsid) : rl := mkrl s ([], []) ([], []).

Lemma NoDup_range a n : NoDup (range_nat a n).
Proof.
  assert (G : forall m b x, In x (range_nat b m) -> b <= x).
  { induction m as [|k IH]; intros b x Hin; cbn in Hin; [contradiction|].
    destruct Hin as [<-|Hin]; [lia|]. apply IH in Hin. lia. }
  revert a. induction n as [|n IH]; intro a; cbn; constructor; auto.
  intro Hin. apply G in Hin. lia.
Qed.

Lemma sid_of_inj r d i j : sid_of r d i = sid_of r d j -> i = j.
Proof. intro H. apply (f_equal sid_idx) in H. rewrite !sid_of_idx in H. exact H. Qed.

Lemma Rinv_NoDup peer x d : Rinv peer x -> NoDup (qget (rl_y x) d ++ qget (rl_q x) d).
Proof.
  intro I. rewrite (I d). apply Injective_map_NoDup; [|apply NoDup_range].
  intros i j. apply sid_of_inj.
Qed.

Lemma Rinv_init peer s : r_next s = (0, 0) -> Rinv peer (rl_init s).
Proof. intros H0 d. cbn. rewrite H0. destruct d; reflexivity. Qed.

Definition max_le (a b : N * N) : Prop := forall d, pget a d <= pget b d.

(* RemoteStreamIds::raise_limit after the repair of F27 *)
Lemma apply_up_spec max d up max' adv :
  apply_up true max d up = (max', adv) ->
  max_le max max'
  /\ match adv with
     | Some a => a = pget max' d /\ pget max d < a
     | None => max' = max
     end.
Proof.
  unfold apply_up, raise_limit. destruct up as [m|]; intro H.
  - destruct (N.ltb_spec (pget max d) m); injection H as <- <-.
    + split; [|rewrite pget_pset_same; auto].
      intro d'. destruct (dir_dec d d') as [<-|Hd]; [rewrite pget_pset_same; lia|].
      rewrite pget_pset_other by assumption. lia.
    + split; [intro; lia|reflexivity].
  - injection H as <- <-. split; [intro; lia|reflexivity].
Qed.

(* an answer (state, MAX_STREAMS frame) of RemoteStreamIds to an event on direction d *)
Definition limit_raised (s : rsid) (d : dir) (r : rsid * option N) : Prop :=
  max_le (r_max s) (r_max (fst r))
  /\ match snd r with
     | Some a => a = pget (r_max (fst r)) d /\ pget (r_max s) d < a
     | None => r_max (fst r) = r_max s
     end.

Lemma end_limit_raised s d idx : limit_raised s d (on_end_of_stream true s d idx).
Proof.
  unfold on_end_of_stream. destruct (ctrl_on_end (r_ctrl s) d idx) as [c up].
  destruct (apply_up true (r_max s) d up) as [max' adv] eqn:E. exact (apply_up_spec _ _ _ _ _ E).
Qed.

Lemma blocked_limit_raised s d v : limit_raised s d (recv_streams_blocked true s d v).
Proof.
  unfold recv_streams_blocked. cbn [andb].
  destruct (v <? pget (r_max s) d); [split; [intro; cbn; lia|reflexivity]|].
  destruct (ctrl_on_blocked (r_ctrl s) d (pget (r_max s) d)) as [c up].
  destruct (apply_up true (r_max s) d up) as [max' adv] eqn:E. exact (apply_up_spec _ _ _ _ _ E).
Qed.

Lemma max_le_step strict peer x o :
  max_le (r_max (rl_s x)) (r_max (rl_s (rl_step strict true peer x o))).
Proof.
  destruct o as [d idx|d|d idx|d v]; cbn [rl_step].
  - destruct (try_accept_sid strict true (rl_s x) d idx) as [[s' res] up] eqn:E.
    pose proof (try_accept_spec _ _ _ _ _ _ _ _ E) as A. intro d'.
    destruct res; cbn [rl_s]; [destruct A as (-> & _)|destruct A as (-> & _)|destruct A as (_ & _ & _ & _ & _ & -> & _)]; lia.
  - destruct (qget (rl_q x) d); intro; cbn; lia.
  - apply end_limit_raised.
  - apply blocked_limit_raised.
Qed.

Lemma blocked_eq s d v :
  recv_streams_blocked true s d v
  = if v <? pget (r_max s) d then (s, None)
    else match r_ctrl s with
         | Consistent _ => (s, None)
         | Demand => (mkrsid (pset (r_max s) d (pget (r_max s) d + 1)) (r_next s) Demand,
                      Some (pget (r_max s) d + 1))
         end.
Proof.
  unfold recv_streams_blocked. cbn [andb]. destruct (v <? pget (r_max s) d); [reflexivity|].
  destruct s as [mx nx [ms|]]; cbn [r_ctrl r_max r_next ctrl_on_blocked apply_up raise_limit]; [reflexivity|].
  destruct (N.ltb_spec (pget mx d) (pget mx d + 1)); [reflexivity|lia].
Qed.

(* ConsistentConcurrency keeps its own counter equal to the limit, so each ended stream adds one *)
Definition ctrl_synced (s : rsid) : Prop :=
  match r_ctrl s with Consistent ms => ms = r_max s | Demand => True end.
