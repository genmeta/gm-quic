(* Lemmas about Model/LocalCid.v: what every history of one connection's LocalCids satisfies
   ([lreach_inv]) and what the retirement of a sequence number does.
   Everything is for an arbitrary ISSUED environment (E, gen, ret); between two operations of the
   connection the environment may change arbitrarily (other connections share the router). *)
From Coq Require Import List NArith ZArith Lia.
From GQ Require Import Lib.Base Lib.Slice Model.Router Model.LocalCid Model.RemoteCid.
Import ListNotations.
Local Open Scope N_scope.

Fixpoint somes {A} (l : list (option A)) : list A :=
  match l with
  | [] => []
  | Some x :: r => x :: somes r
  | None :: r => somes r
  end.

Lemma count_somes : forall A (l : list (option A)), count_some l = length (somes l).
Proof. induction l as [|[x|] r IH]; cbn; congruence. Qed.

Lemma count_some_len : forall A (l : list (option A)), (count_some l <= length l)%nat.
Proof. induction l as [|[x|] r IH]; cbn; lia. Qed.

Lemma somes_app : forall A (a b : list (option A)), somes (a ++ b) = somes a ++ somes b.
Proof. induction a as [|[x|] r IH]; intros; cbn; rewrite ?IH; reflexivity. Qed.

Lemma somes_skip_leading : forall A (l : list (option A)), somes (skipn (leading_none l) l) = somes l.
Proof. induction l as [|[x|] r IH]; cbn; auto. Qed.

Lemma length_skip_leading : forall A (l : list (option A)),
  (length (skipn (leading_none l) l) + leading_none l = length l)%nat.
Proof. induction l as [|[x|] r IH]; cbn; lia. Qed.

Lemma length_set_nth : forall A p (l : list A) v, length (set_nth p l v) = length l.
Proof. induction p; destruct l; intros; cbn; auto. Qed.

Lemma somes_set_nth : forall A p (l : list (option A)) c,
  nth_error l p = Some (Some c) ->
  exists a1 a2, somes l = a1 ++ c :: a2 /\ somes (set_nth p l None) = a1 ++ a2.
Proof.
  induction p; destruct l as [|[x|] r]; intros c H; cbn in H; try discriminate.
  - inversion H; subst. exists [], (somes r). split; reflexivity.
  - apply IHp in H. destruct H as [a1 [a2 [H1 H2]]]. exists (x :: a1), a2. cbn. rewrite H1, H2. split; reflexivity.
  - apply IHp in H. destruct H as [a1 [a2 [H1 H2]]]. exists a1, a2. cbn. split; assumption.
Qed.

Lemma nth_error_set_nth : forall A p (l : list A) x v,
  nth_error l p = Some x -> nth_error (set_nth p l v) p = Some v.
Proof. induction p; destruct l; cbn; intros; try discriminate; eauto. Qed.

Lemma in_somes : forall A (l : list (option A)) x, In x (somes l) <-> In (Some x) l.
Proof.
  induction l as [|[y|] r IH]; intros x; cbn; [tauto| |].
  - rewrite IH. split; intros [H|H]; auto; left; congruence.
  - rewrite IH. split; [auto|]. intros [H|H]; [discriminate|assumption].
Qed.

Lemma nseq_app : forall n m a, nseq a (n + m) = nseq a n ++ nseq (a + N.of_nat n) m.
Proof.
  induction n; intros m a.
  - cbn. rewrite N.add_0_r. reflexivity.
  - cbn [Nat.add nseq app]. rewrite IHn. f_equal. f_equal. f_equal. lia.
Qed.

Lemma nseq_snoc : forall n a, nseq a (S n) = nseq a n ++ [a + N.of_nat n].
Proof. intros. rewrite <- Nat.add_1_r. apply nseq_app. Qed.

Lemma nseq_length : forall n a, length (nseq a n) = n.
Proof. induction n; intros; cbn; auto. Qed.

Lemma in_nseq : forall n a x, In x (nseq a n) <-> a <= x < a + N.of_nat n.
Proof.
  induction n; intros a x; cbn [nseq In].
  - lia.
  - rewrite IHn. lia.
Qed.

Lemma nseq_nodup : forall n a, NoDup (nseq a n).
Proof.
  induction n; intros a; cbn [nseq]; constructor; [|apply IHn].
  rewrite in_nseq. lia.
Qed.

Definition fseq (f : lframe) : N := match f with LNew s _ _ => s end.
Definition frpt (f : lframe) : N := match f with LNew _ r _ => r end.

Inductive lop := LSet (n : N) | LRet (seq : N) | LClr.

Section Local.
  Variable E : Type.
  Variable gen : E -> option (E * cid).
  Variable ret : E -> cid -> E.

  Definition lstep (e : E) (l : lcids) (o : lop) : option (E * lcids * list lframe * lres) :=
    match o with
    | LSet n => l_set_limit E gen e l n
    | LRet seq => l_recv_retire E gen ret e l seq
    | LClr => let '(e', l') := l_clear E ret e l in Some (e', l', [], LOk)
    end.

  Inductive lreach : lcids -> list lframe -> Prop :=
  | lr_new e scid e1 l1 fs : l_new E gen e scid = Some (e1, l1, fs) -> lreach l1 fs
  | lr_step e l fs o e' l' fs' r :
      lreach l fs -> lstep e l o = Some (e', l', fs', r) -> lreach l' (fs ++ fs').

  Lemma issue_spec : forall e l e' l' f,
    issue E gen e l = Some (e', l', f) ->
    exists c, gen e = Some (e', c) /\
      l' = mkL (l_off l) (l_cells l ++ [Some c]) (l_limit l) /\ f = LNew (l_largest l) (l_off l) c.
  Proof.
    intros e l e' l' f H. unfold issue in H. destruct (gen e) as [[e1 c]|]; [|discriminate].
    inversion H; subst. exists c. auto.
  Qed.

  Lemma issue_effect : forall e l e' l' f,
    issue E gen e l = Some (e', l', f) ->
    l_largest l' = l_largest l + 1 /\ l_active l' = l_active l + 1 /\ l_limit l' = l_limit l /\
    fseq f = l_largest l /\ frpt f = l_off l.
  Proof.
    intros e l e' l' f H. apply issue_spec in H. destruct H as [c [_ [-> ->]]].
    unfold l_largest, l_active, lenN. cbn [l_off l_cells l_limit fseq frpt].
    rewrite !count_somes, somes_app, !app_length. cbn [somes length]. repeat split; lia.
  Qed.

  Definition Consecutive (top : N) (fs : list lframe) : Prop :=
    map fseq fs = nseq 1 (length fs) /\ top = 1 + lenN fs /\
    Forall (fun f => frpt f <= fseq f) fs.

  Lemma Consecutive_issue : forall e l fs e' l' f,
    Consecutive (l_largest l) fs -> issue E gen e l = Some (e', l', f) ->
    Consecutive (l_largest l') (fs ++ [f]).
  Proof.
    intros e l fs e' l' f [H1 [H2 H3]] H. apply issue_effect in H. destruct H as (-> & _ & _ & Hs & Hr).
    unfold Consecutive, lenN in *. split; [|split].
    - rewrite map_app, app_length. cbn [map length]. rewrite Nat.add_1_r, nseq_snoc, H1, Hs, H2. reflexivity.
    - rewrite app_length. cbn [length]. lia.
    - apply Forall_app. split; [assumption|]. constructor; [|constructor]. unfold l_largest in *. lia.
  Qed.

  Lemma issue_n_spec : forall n e l fs e' l' fs',
    Consecutive (l_largest l) fs -> issue_n E gen n e l = Some (e', l', fs') ->
    Consecutive (l_largest l') (fs ++ fs') /\ l_active l' = l_active l + N.of_nat n.
  Proof.
    induction n as [|n IH]; intros e l fs e' l' fs' HC H; cbn [issue_n] in H.
    - inversion H; subst. rewrite app_nil_r, N.add_0_r. auto.
    - destruct (issue E gen e l) as [[[e1 l1] f]|] eqn:E1; [|discriminate].
      destruct (issue_n E gen n e1 l1) as [[[e2 l2] fs2]|] eqn:E2; [|discriminate].
      inversion H; subst. destruct (IH _ _ _ _ _ _ (Consecutive_issue _ _ _ _ _ _ HC E1) E2) as (Ha & ->).
      apply issue_effect in E1. destruct E1 as (_ & -> & _).
      rewrite <- app_assoc in Ha. split; [exact Ha|lia].
  Qed.

  Definition Count (l : lcids) : Prop :=
    match l_limit l with
    | Some n => l_active l <= n
    | None => l_active l <= 2
    end.

  Lemma active_le_largest : forall l, l_active l <= l_largest l.
  Proof.
    intros l. unfold l_active, l_largest, lenN. pose proof (count_some_len _ (l_cells l)). lia.
  Qed.

  Lemma l_get_some : forall l seq c,
    l_get l seq = Some c -> l_off l <= seq < l_largest l /\
    nth_error (l_cells l) (N.to_nat (seq - l_off l)) = Some c.
  Proof.
    intros l seq c H. unfold l_get in H. destruct (seq <? l_off l) eqn:Elt; [discriminate|].
    apply N.ltb_ge in Elt. split; [|exact H].
    assert (N.to_nat (seq - l_off l) < length (l_cells l))%nat by (apply nth_error_Some; congruence).
    unfold l_largest, lenN. lia.
  Qed.

  Lemma retire_unissued : forall e l seq,
    l_largest l <= seq -> l_recv_retire E gen ret e l seq = Some (e, l, [], LErrLimit).
  Proof. intros e l seq H. unfold l_recv_retire. apply N.leb_le in H. rewrite H. reflexivity. Qed.

  Definition cleared (l : lcids) (seq : N) : lcids :=
    let cells1 := set_nth (N.to_nat (seq - l_off l)) (l_cells l) None in
    let n := leading_none cells1 in
    mkL (l_off l + N.of_nat n) (skipn n cells1) (l_limit l).

  Lemma retire_issued : forall e l seq, seq < l_largest l ->
    l_recv_retire E gen ret e l seq =
      match l_get l seq with
      | Some (Some c) =>
          match issue E gen e (cleared l seq) with
          | None => None
          | Some (e1, l2, f) => Some (ret e1 c, l2, [f], LOk)
          end
      | _ => Some (e, l, [], LOk)
      end.
  Proof. intros e l seq H. apply N.leb_gt in H. unfold l_recv_retire. rewrite H. reflexivity. Qed.

  Lemma cleared_somes : forall l seq c, l_get l seq = Some (Some c) ->
    exists a1 a2, somes (l_cells l) = a1 ++ c :: a2 /\ somes (l_cells (cleared l seq)) = a1 ++ a2.
  Proof.
    intros l seq c H. destruct (l_get_some _ _ _ H) as [_ Hn].
    destruct (somes_set_nth _ _ _ _ Hn) as (a1 & a2 & H1 & H2). exists a1, a2.
    cbn [cleared l_cells]. rewrite somes_skip_leading. auto.
  Qed.

  Lemma cleared_count : forall l seq c, l_get l seq = Some (Some c) ->
    l_largest (cleared l seq) = l_largest l /\ l_active (cleared l seq) + 1 = l_active l.
  Proof.
    intros l seq c H. split.
    - unfold l_largest, lenN, cleared. cbn [l_off l_cells].
      pose proof (length_skip_leading _ (set_nth (N.to_nat (seq - l_off l)) (l_cells l) None)) as Hlen.
      rewrite length_set_nth in Hlen. lia.
    - destruct (cleared_somes _ _ _ H) as (a1 & a2 & Hs1 & Hs2).
      unfold l_active. rewrite !count_somes, Hs1, Hs2, !app_length. cbn [length]. lia.
  Qed.

  (* the number stays retired whatever is issued afterwards *)
  Lemma cleared_gone : forall l seq c ext, l_get l seq = Some (Some c) ->
    let l' := mkL (l_off (cleared l seq)) (l_cells (cleared l seq) ++ ext) (l_limit l) in
    l_get l' seq = None \/ l_get l' seq = Some None.
  Proof.
    intros l seq c ext H. destruct (l_get_some _ _ _ H) as [[Hlo _] Hn]. unfold l_get, cleared. cbn [l_off l_cells].
    set (p := N.to_nat (seq - l_off l)) in *. set (n := leading_none (set_nth p (l_cells l) None)).
    destruct (N.ltb_spec seq (l_off l + N.of_nat n)) as [E2|E2]; [left; reflexivity|right].
    replace (N.to_nat (seq - (l_off l + N.of_nat n))) with (p - n)%nat by (unfold p; lia).
    assert (Hp : nth_error (skipn n (set_nth p (l_cells l) None)) (p - n) = Some None).
    { rewrite nth_error_skipn. replace (n + (p - n))%nat with p by (unfold p; lia).
      exact (nth_error_set_nth _ _ _ _ None Hn). }
    rewrite nth_error_app1; [exact Hp|]. apply nth_error_Some. congruence.
  Qed.

  Inductive lmove (e : E) (l : lcids) : E -> lcids -> list lframe -> Prop :=
  | lm_same : lmove e l e l []
  | lm_set n e1 l1 fs : l_limit l = None -> 2 <= n ->
      issue_n E gen (N.to_nat (n - l_largest l)) e l = Some (e1, l1, fs) ->
      lmove e l e1 (mkL (l_off l1) (l_cells l1) (Some n)) fs
  | lm_retire seq c e1 l2 f : l_get l seq = Some (Some c) ->
      issue E gen e (cleared l seq) = Some (e1, l2, f) -> lmove e l (ret e1 c) l2 [f]
  | lm_clear : lmove e l (retire_all E ret e (l_cells l)) (mkL (l_largest l) [] (l_limit l)) [].

  Lemma lstep_lmove : forall e l o e' l' fs r, lstep e l o = Some (e', l', fs, r) -> lmove e l e' l' fs.
  Proof.
    intros e l o e' l' fs r H. destruct o as [n|seq|]; cbn [lstep l_clear] in H.
    - unfold l_set_limit in H. destruct (l_limit l) eqn:EL; [injection H as <- <- <- _; constructor|].
      destruct (N.ltb_spec n 2); [injection H as <- <- <- _; constructor|].
      destruct (issue_n E gen (N.to_nat (n - l_largest l)) e l) as [[[e1 l1] fs1]|] eqn:E1; [|discriminate].
      injection H as <- <- <- _. apply lm_set; assumption.
    - destruct (N.leb_spec (l_largest l) seq).
      { rewrite retire_unissued in H by assumption. injection H as <- <- <- _; constructor. }
      rewrite retire_issued in H by assumption.
      destruct (l_get l seq) as [[c|]|] eqn:EG; [|injection H as <- <- <- _; constructor..].
      destruct (issue E gen e (cleared l seq)) as [[[e1 l2] f]|] eqn:E1; [|discriminate].
      injection H as <- <- <- _. eapply lm_retire; eassumption.
    - injection H as <- <- <- _. constructor.
  Qed.

  Lemma lreach_inv : forall l fs, lreach l fs -> Consecutive (l_largest l) fs /\ Count l.
  Proof.
    induction 1 as [e scid e1 l1 fs H | e l fs o e' l' fs' r Hr [HC HK] H].
    - unfold l_new in H. destruct (issue E gen e (mkL 0 [Some scid] None)) as [[[e2 l2] f]|] eqn:E1; [|discriminate].
      inversion H; subst. split.
      + apply (Consecutive_issue _ _ []) in E1; [exact E1|]. split; [reflexivity|split; [reflexivity|constructor]].
      + apply issue_effect in E1. destruct E1 as (_ & Ha & Hl & _). unfold Count. rewrite Hl, Ha. cbn. lia.
    - destruct (lstep_lmove _ _ _ _ _ _ _ H) as [|n e1 l1 fs1 EL E2 E1|seq c e1 l2 f EG E1|].
      + rewrite app_nil_r. split; assumption.
      + destruct (issue_n_spec _ _ _ _ _ _ _ HC E1) as (Ha & Hb).
        split; [exact Ha|]. unfold Count in *. rewrite EL in HK. cbn [l_limit].
        change (l_active (mkL (l_off l1) (l_cells l1) (Some n))) with (l_active l1).
        pose proof (active_le_largest l). lia.
      + destruct (cleared_count l seq c EG) as (Hl & Ha).
        rewrite <- Hl in HC. split; [exact (Consecutive_issue _ _ _ _ _ _ HC E1)|].
        apply issue_effect in E1. destruct E1 as (_ & Ha' & Hlim & _).
        unfold Count in *. rewrite Hlim. cbn [cleared l_limit]. destruct (l_limit l); lia.
      + rewrite app_nil_r. split.
        * unfold l_largest at 1. cbn [l_off l_cells]. change (lenN []) with 0. rewrite N.add_0_r. exact HC.
        * unfold Count in *. cbn. destruct (l_limit l); lia.
  Qed.

  Lemma lreach_count : forall l fs, lreach l fs ->
    (forall n, l_limit l = Some n -> l_active l <= n) /\ (l_limit l = None -> l_active l <= 2).
  Proof.
    intros l fs H. apply lreach_inv in H. destruct H as [_ HK]. unfold Count in HK.
    split; [intros n Hn|intros Hn]; rewrite Hn in HK; exact HK.
  Qed.
End Local.
