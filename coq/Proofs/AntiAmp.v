(* Model/AntiAmp.v: what each atomic piece does to `state`, `credit` and the waker (Burst.v and AntiAmpRace.v build on
   these), and two invariants of the small-step system: no wake-up of the parked sender is lost, for every interleaving
   of the atomic steps of on_rcvd / grant / abort with the sender's balance() + wait_for ([RInv]); the 3x ratio holds
   under every interleaving for the conditional send of that system, one segment of at most the balance read by the
   sender ([CI]). *)
From Coq Require Import List NArith Lia.
From GQ Require Import Model.AntiAmp.
Import ListNotations.
Local Open Scope N_scope.

Lemma wake_credit_st a : st (wake_credit a) = st a.
Proof. unfold wake_credit. destruct (cbit a); reflexivity. Qed.

Lemma wake_credit_credit a : credit (wake_credit a) = credit a.
Proof. unfold wake_credit. destruct (cbit a); reflexivity. Qed.

Lemma wake_credit_cbit a : cbit (wake_credit a) = true.
Proof. unfold wake_credit. destruct (cbit a) eqn:E; [exact E | reflexivity]. Qed.

Lemma wake_credit_wakes a :
  wakes a <= wakes (wake_credit a) /\ (cbit a = false -> reg a = true -> wakes (wake_credit a) = wakes a + 1).
Proof.
  unfold wake_credit. destruct (cbit a); cbn [wakes]; [split; [lia | discriminate] |].
  split; [destruct (reg a); lia | intros _ ->; reflexivity].
Qed.

Lemma on_rcvd_st a n : st (on_rcvd a n) = st a.
Proof. unfold on_rcvd. destruct (st a =? 0); [rewrite wake_credit_st |]; reflexivity. Qed.

Lemma on_sent_st a n : st (on_sent a n) = st a.
Proof. unfold on_sent. destruct (st a =? 0); reflexivity. Qed.

Lemma deposit_credit a n : credit a + 3 * n < W -> credit (fetch_add a (n * FACTOR mod W)) = credit a + 3 * n.
Proof.
  intro H. unfold fetch_add, FACTOR. cbn [set_credit credit].
  rewrite (N.mod_small (n * 3)) by lia. rewrite N.mod_small; lia.
Qed.

Lemma on_rcvd_credit a n : st a = 0 -> credit a + 3 * n < W -> credit (on_rcvd a n) = credit a + 3 * n.
Proof. intros H0 H. unfold on_rcvd. rewrite H0. cbn [N.eqb]. rewrite wake_credit_credit. apply deposit_credit, H. Qed.

Lemma on_sent_credit a n : st a = 0 -> credit (on_sent a n) = credit a - n.
Proof. intro H0. unfold on_sent. rewrite H0. reflexivity. Qed.

Lemma on_sent_credit_le a n : credit (on_sent a n) <= credit a.
Proof. unfold on_sent, debit. destruct (st a =? 0); cbn [set_credit credit]; lia. Qed.

Lemma In_remove_nth_other {A} (x : A) i l y :
  nth_error l i = Some y -> In x l -> x <> y -> In x (remove_nth i l).
Proof.
  revert i. induction l as [| h t IH]; intros i Hn Hin Hne; [destruct Hin |].
  destruct i as [| i]; cbn in Hn.
  - injection Hn as ->. destruct Hin as [-> | Hin]; [congruence | exact Hin].
  - unfold remove_nth. cbn [firstn skipn app]. destruct Hin as [-> | Hin]; [left; reflexivity |].
    right. apply (IH i Hn Hin Hne).
Qed.

Definition signal_pending (y : sys) : Prop := cbit (sa y) = true \/ In NWake (pend y).
Definition changed (y : sys) : Prop := credit (sa y) <> 0 \/ st (sa y) <> 0.

(* what the sender knows is stale only if a signal is still on its way *)
Definition RInv (y : sys) : Prop :=
  match spcv y with
  | SReloadState => credit (sa y) <> 0 -> signal_pending y
  | SWait => changed y -> signal_pending y
  | SParked w0 =>
      (w0 < wakes (sa y) /\ cbit (sa y) = true) \/
      (cbit (sa y) = false /\ reg (sa y) = true /\ w0 = wakes (sa y) /\ (changed y -> In NWake (pend y)))
  | _ => True
  end.

(* a step of a notifier that leaves the waker alone: what it changes in `state` or `credit` it announces by a wake_by
   that is still to come *)
Lemma RInv_notifier y a' p' r h :
  RInv y -> cbit a' = cbit (sa y) -> reg a' = reg (sa y) -> wakes a' = wakes (sa y) ->
  (In NWake (pend y) -> In NWake p') ->
  In NWake p' \/ (credit a' = credit (sa y) /\ st a' = st (sa y)) ->
  RInv (mksys a' p' (spcv y) r h).
Proof.
  intros HI Ec Er Ew Hp Hc. unfold RInv, signal_pending, changed in *. cbn [spcv sa pend]. rewrite Ec, Er, Ew.
  destruct Hc as [Hc | [-> ->]].
  - destruct (spcv y); try exact I; [right; exact Hc | right; exact Hc |].
    destruct HI as [HI | (C1 & C2 & C3 & _)]; [left; exact HI | right; repeat split; try assumption; intros _; exact Hc].
  - destruct (spcv y); try exact I.
    1,2: intro H; destruct (HI H) as [C | C]; [left; exact C | right; exact (Hp C)].
    destruct HI as [HI | (C1 & C2 & C3 & C4)]; [left; exact HI | right].
    repeat split; try assumption. intro H. exact (Hp (C4 H)).
Qed.

Lemma RInv_step y l y' : RInv y -> sstep y l = Some y' -> RInv y'.
Proof.
  intros HI E. destruct l as [n | | | i | k]; cbn [sstep] in E.
  - (* on_rcvd entered *)
    destruct (st (sa y) =? 0); injection E as <-; apply RInv_notifier; auto.
    intro H. apply in_or_app. left. exact H.
  - (* grant *)
    destruct (st (sa y) =? 0); injection E as <-; [| exact HI].
    apply RInv_notifier; try reflexivity; [exact HI | intros _ |left]; apply in_elt.
  - (* abort *)
    destruct (st (sa y) =? 0); injection E as <-; [| exact HI].
    apply RInv_notifier; try reflexivity; [exact HI | intros _ |left]; apply in_elt.
  - (* a notifier step *)
    destruct (nth_error (pend y) i) as [[n |] |] eqn:En; [| | discriminate]; injection E as <-.
    + (* fetch_add, wake still to come *)
      apply RInv_notifier; try reflexivity; [exact HI | intros _ |left]; apply in_elt.
    + (* wake_by(CREDIT) *)
      pose proof (wake_credit_cbit (sa y)) as W1. destruct (wake_credit_wakes (sa y)) as [W5 W6].
      unfold RInv, signal_pending, changed in *. cbn [spcv sa pend].
      destruct (spcv y); try exact I.
      * intros _. left. exact W1.
      * intros _. left. exact W1.
      * left. destruct HI as [[H1 H2] | (C1 & C2 & C3 & C4)].
        -- split; [lia | exact W1].
        -- split; [rewrite (W6 C1 C2); lia | exact W1].
  - (* a sender step *)
    unfold sender_step in E. unfold RInv, signal_pending, changed in *.
    destruct (spcv y) as [ | | | | | w0 | budget | n | n | ] eqn:Epc.
    + (* SIdle *)
      destruct (st (sa y) =? 1); [injection E as <-; exact I |].
      destruct (st (sa y) =? 2); injection E as <-; exact I.
    + (* SLoadCredit *)
      destruct (N.eqb_spec (credit (sa y)) 0) as [Ez | Ez]; injection E as <-; cbn [spcv sa pend]; [| exact I].
      intro H; contradiction.
    + (* SReloadState *)
      destruct (N.eqb_spec (st (sa y)) 0) as [E0 | E0]; injection E as <-; cbn [spcv sa pend]; [| exact I].
      intros [H | H]; [exact (HI H) | contradiction].
    + injection E as <-. cbn [spcv]. destruct (st (sa y) =? 1); exact I.
    + (* SWait: poll *)
      unfold poll_wait in E. destruct (cbit (sa y)) eqn:Ec; injection E as <-; cbn [spcv sa pend cbit reg wakes credit st]; [exact I |].
      right. repeat split; try reflexivity. intro H. destruct (HI H) as [C | C]; [discriminate | exact C].
    + (* SParked: runs again only when woken *)
      destruct (N.ltb_spec w0 (wakes (sa y))) as [Hlt | Hge]; [| discriminate]. injection E as <-. cbn [spcv sa pend].
      intros _. destruct HI as [[_ H2] | (_ & _ & C3 & _)]; [left; exact H2 | lia].
    + destruct (k <=? budget); [injection E as <-; exact I | discriminate].
    + destruct (st (sa y) =? 0); injection E as <-; exact I.
    + injection E as <-. exact I.
    + discriminate.
Qed.

Lemma RInv_reach y : sreach y -> RInv y.
Proof. induction 1 as [| y l y' _ IH E]; [exact I | exact (RInv_step _ _ _ IH E)]. Qed.

Definition pend1 (x : npc) : N := match x with NAdd n => n | NWake => 0 end.
Fixpoint pendsum (l : list npc) : N := match l with [] => 0 | x :: t => pend1 x + pendsum t end.
Definition inflight (pc : spc) : N := match pc with SDebitLoad n | SDebit n => n | _ => 0 end.

Lemma pendsum_app l1 l2 : pendsum (l1 ++ l2) = pendsum l1 + pendsum l2.
Proof. induction l1 as [| x l IH]; cbn [app pendsum]; [lia | rewrite IH; lia]. Qed.

Lemma pendsum_remove i l x : nth_error l i = Some x -> pendsum (remove_nth i l) + pend1 x = pendsum l.
Proof.
  revert i. induction l as [| h t IH]; intros i E; [destruct i; discriminate |].
  destruct i as [| i]; cbn in E.
  - injection E as ->. unfold remove_nth. cbn [firstn skipn app pendsum]. apply N.add_comm.
  - specialize (IH i E). unfold remove_nth in *. cbn [firstn skipn app pendsum]. rewrite <- IH. rewrite N.add_assoc. reflexivity.
Qed.

Definition budget (pc : spc) : N := match pc with SSend b => b | _ => 0 end.

(* the credit, the bytes handed to IO and 3 x the arrivals whose deposit is still to come account for 3 x the bytes
   received; what the sender has read as its budget, or has assembled and not yet debited, is covered by the credit *)
Definition CI (y : sys) : Prop :=
  3 * gR y < W -> st (sa y) = 0 ->
  credit (sa y) + gH y + 3 * pendsum (pend y) = 3 * gR y + inflight (spcv y) /\
  inflight (spcv y) <= credit (sa y) /\ inflight (spcv y) <= gH y /\ budget (spcv y) <= credit (sa y).

Lemma CI_step y l y' : CI y -> sstep y l = Some y' -> CI y'.
Proof.
  intros HI E HR' H0'. unfold CI in HI.
  destruct l as [n | | | i | k]; cbn [sstep] in E.
  - (* on_rcvd entered *)
    destruct (N.eqb_spec (st (sa y)) 0) as [E0 | E0]; injection E as <-; cbn [sa pend spcv gR gH] in *; [| contradiction].
    destruct (HI ltac:(lia) E0) as (P1 & P2 & P3 & P4).
    rewrite pendsum_app. cbn [pendsum pend1]. repeat split; lia.
  - destruct (N.eqb_spec (st (sa y)) 0) as [E0 | E0]; injection E as <-; cbn [sa set_st st] in *; [discriminate | exact (HI HR' H0')].
  - destruct (N.eqb_spec (st (sa y)) 0) as [E0 | E0]; injection E as <-; cbn [sa set_st st] in *; [discriminate | exact (HI HR' H0')].
  - (* notifier step *)
    destruct (nth_error (pend y) i) as [[n |] |] eqn:En; [| | discriminate]; injection E as <-;
      cbn [sa pend spcv gR gH] in *; pose proof (pendsum_remove i (pend y) _ En) as Hrm; cbn [pend1] in Hrm.
    + destruct (HI HR' H0') as (P1 & P2 & P3 & P4).
      rewrite pendsum_app, deposit_credit by lia. cbn [pendsum pend1]. repeat split; lia.
    + rewrite wake_credit_st in H0'. rewrite wake_credit_credit.
      destruct (HI HR' H0') as (P1 & P2 & P3 & P4). repeat split; lia.
  - (* sender step: only the send and the debit move bytes *)
    unfold sender_step in E.
    destruct (spcv y) as [ | | | | | w0 | b | n | n | ] eqn:Epc; cbn [inflight budget] in HI.
    + destruct (N.eqb_spec (st (sa y)) 1) as [E1 | E1]; [injection E as <-; cbn [sa st] in H0'; congruence |].
      destruct (N.eqb_spec (st (sa y)) 2) as [E2 | E2]; injection E as <-; [cbn [sa] in H0'; congruence | exact (HI HR' H0')].
    + destruct (N.eqb_spec (credit (sa y)) 0) as [Ez | Ez]; injection E as <-;
        destruct (HI HR' H0') as (P1 & P2 & P3 & P4); cbn [sa pend spcv gR gH inflight budget]; repeat split; lia.
    + destruct (st (sa y) =? 0); injection E as <-; exact (HI HR' H0').
    + injection E as <-. cbn [sa pend spcv gR gH] in *. rewrite wake_credit_st in H0'. rewrite wake_credit_credit, H0'.
      exact (HI HR' H0').
    + unfold poll_wait in E. destruct (cbit (sa y)); injection E as <-; exact (HI HR' H0').
    + destruct (w0 <? wakes (sa y)); [| discriminate]. injection E as <-. exact (HI HR' H0').
    + destruct (N.leb_spec k b) as [Hk | Hk]; [| discriminate]. injection E as <-.
      destruct (HI HR' H0') as (P1 & P2 & P3 & P4). cbn [sa pend spcv gR gH inflight budget]. repeat split; lia.
    + destruct (N.eqb_spec (st (sa y)) 0) as [E0 | E0]; injection E as <-; [exact (HI HR' H0') | contradiction].
    + injection E as <-. destruct (HI HR' H0') as (P1 & P2 & P3 & P4).
      cbn [sa pend spcv gR gH inflight budget debit set_credit credit]. repeat split; lia.
    + discriminate.
Qed.

Lemma CI_reach y : sreach y -> CI y.
Proof.
  induction 1 as [| y l y' _ IH E]; [| exact (CI_step _ _ _ IH E)].
  intros _ _. cbn. repeat split; lia.
Qed.
