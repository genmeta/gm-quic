(* Invariants of whole histories.  Every step of a history evolves the state ([evolves], Proofs/ConnError.v) or
   runs the fan-out; so a predicate that every evolution keeps - and the fan-out, if the connection error is
   among the allowed operations - is kept by every history (Section History).  Three such predicates:
   [Poisoned e]: once poisoned with e, the connection stays poisoned with e under EVERY operation (application,
   transport, a second error, the executor), so the per-operation statements of Proofs/ConnError.v hold at every
   later point of every history.  [Clean] (no component poisoned) is kept by every history that contains no
   connection error: only on_conn_error ever writes an Err into a component.  The third, the constancy of
   [c_fix23], is in Proofs/ConnErrorFlag.v. *)
From Coq Require Import List ZArith.
From GQ Require Import Model.ConnError Proofs.ConnError.
Import ListNotations.
Local Open Scope N_scope.

Lemma start_task_evolves : forall m t k, evolves m (fst (start_task m t k)).
Proof.
  intros m t k. unfold start_task. destruct (slot_busy m k); [apply ev_refl|].
  pose proof (poll_evolves m t k) as Q. destruct (poll m t k) as [m1 [code val]]. cbn [fst] in Q.
  destruct (code =? 0)%Z; [|exact Q]. exact (ev_trans _ _ _ Q (ev_frame _ _ (same7_set_exec _ _ _))).
Qed.

Lemma repoll_evolves : forall todo m, evolves m (fst (fst (repoll m todo))).
Proof.
  induction todo as [|[t k] rest IH]; intros m; [apply ev_refl|]. cbn [repoll].
  pose proof (poll_evolves m t k) as Q. destruct (poll m t k) as [m1 [code val]]. cbn [fst] in Q.
  set (m2 := if (code =? 0)%Z then m1 else _).
  assert (Q2 : evolves m m2).
  { subst m2. destruct (code =? 0)%Z; [exact Q|]. exact (ev_trans _ _ _ Q (ev_frame _ _ (same7_set_exec _ _ _))). }
  specialize (IH m2). destruct (repoll m2 rest) as [[m3 w] n]. destruct (code =? 0)%Z; exact (ev_trans _ _ _ Q2 IH).
Qed.

Lemma settle_evolves : forall m self, evolves m (fst (settle m self)).
Proof.
  intros m self. unfold settle.
  pose proof (repoll_evolves (filter (fun tk => mem_tid (fst tk) (c_woken m)) (c_tasks m)) (set_exec m (c_tasks m) [])) as Q.
  destruct (repoll _ _) as [[m1 w] n]. cbn [fst] in *.
  apply (ev_trans _ (set_exec m (c_tasks m) [])); [apply ev_frame, same7_set_exec|].
  apply (ev_trans _ _ _ Q), ev_frame, same7_set_exec.
Qed.

(* cm_op dispatches on the tag and the shape of the arguments and does nothing else: short of the connection
   error (21) and a poll racing it (24), every operation it can call evolves the state *)
Lemma cm_op_cases : forall (Q : cm -> Prop) m idx tag a,
  (forall m', evolves m m' -> Q m') ->
  (tag = 21 -> forall e, Q (conn_error e m)) ->
  (tag = 24 -> forall e t a', Q (fst (race m idx e t a'))) ->
  Q (fst (cm_op m idx tag a)).
Proof.
  intros Q m idx tag a Hev.
  pose proof (Hev _ (ev_refl m)) as S0.
  pose proof (Hev _ (ev_frame _ _ (same7_handshake m))) as S1.
  pose proof (fun l => Hev _ (ev_frame _ _ (same7_dgram_send m l))) as S2.
  pose proof (fun d v => Hev _ (ev_frame _ _ (same7_sid_increase m d v))) as S3.
  pose proof (fun l => Hev _ (ev_frame _ _ (same7_dgram_in m l))) as S4.
  pose proof (fun e => Hev _ (ev_frame _ _ (same7_flow_err m e))) as S5.
  pose proof (fun n => Hev _ (ev_frame _ _ (same7_credit m n))) as S6.
  pose proof (fun k => Hev _ (start_task_evolves m idx k)) as S7.
  pose proof (fun d => Hev _ (peer_open_evolves m d)) as S8.
  pose proof (Hev _ (load_evolves m)) as S9.
  pose proof (fun s l f => Hev _ (arrives_evolves _ s _ (peer_data_arrives m s l f))) as A1.
  pose proof (fun s g => Hev _ (arrives_evolves _ s _ (peer_fingap_arrives m s g))) as A2.
  pose proof (fun s => Hev _ (arrives_evolves _ s _ (peer_reset_arrives m s))) as A3.
  pose proof (fun s => Hev _ (peer_stop_evolves m s)) as C1.
  pose proof (fun s v => Hev _ (peer_maxsd_evolves m s v)) as C2.
  pose proof (fun s => Hev _ (ack_evolves m s)) as C3.
  clear Hev. revert S0 S1 S2 S3 S4 S5 S6 S7 S8 S9 A1 A2 A3 C1 C2 C3. unfold cm_op.
  (* the operations are made opaque first: otherwise closing a case with a hypothesis compares it with
     the other seventeen by unfolding both *)
  generalize (handshake m) (start_task m idx) (dgram_send m) (peer_open m) (peer_data m) (peer_fingap m)
             (peer_reset m) (peer_stop m) (peer_maxsd m) (sid_increase m) (load m) (ack m) (dgram_in m)
             flow_conn_error (credit m) conn_error (race m idx).
  intros.
  repeat match goal with
         | |- context[match ?x with _ => _ end] =>
           match type of x with N => destruct x | positive => destruct x | list Z => destruct x end
         end; cbn [fst]; auto.
Qed.

Lemma race_eq : forall m idx e t a, race m idx e t a =
  match race_kind t a with
  | Some k => (conn_error e (fst (start_task m idx k)), snd (start_task m idx k))
  | None => (m, [(-99)%Z])
  end.
Proof. intros. unfold race. destruct (race_kind t a); [destruct (start_task _ _ _)|]; reflexivity. Qed.

(* the output [-99] (malformed operation) is the one after which cm_step does not run the executor *)
Lemma cm_step_fst : forall m idx tag a,
  fst (cm_step m idx tag a) = fst (cm_op m idx tag a) \/
  fst (cm_step m idx tag a) = fst (settle (fst (cm_op m idx tag a)) idx).
Proof.
  intros. unfold cm_step. destruct (cm_op m idx tag a) as [m1 o]. cbn [fst].
  destruct (settle m1 idx) as [m2 w].
  destruct o as [|[|p|p] o]; auto. do 7 (destruct p as [p|p|]; auto). destruct o; auto.
Qed.

Section History.
  Variable P : cm -> Prop.
  Hypothesis P_evolves : forall m m', evolves m m' -> P m -> P m'.
  Variable allowed : N -> Prop.
  Hypothesis P_conn_error : forall tag e m, allowed tag -> tag = 21 \/ tag = 24 -> P m -> P (conn_error e m).

  Lemma exec_cm_step : forall m idx tag a, allowed tag -> P m -> P (fst (cm_step m idx tag a)).
  Proof.
    intros m idx tag a T H.
    assert (Q : P (fst (cm_op m idx tag a))).
    { apply cm_op_cases; intros.
      - eapply P_evolves; eassumption.
      - apply (P_conn_error tag); auto.
      - (* the racing poll runs against the state before the error, then the whole fan-out *)
        rewrite race_eq. destruct (race_kind t a') as [k|]; [|exact H].
        apply (P_conn_error tag); auto. exact (P_evolves _ _ (start_task_evolves m idx k) H). }
    destruct (cm_step_fst m idx tag a) as [E|E]; rewrite E; [|apply (P_evolves _ _ (settle_evolves _ _))]; exact Q.
  Qed.

  Lemma exec_cm_exec : forall ops m idx, Forall (fun o => allowed (fst o)) ops -> P m -> P (cm_exec m idx ops).
  Proof.
    induction ops as [|[t a] r IH]; intros m idx T H; [exact H|]. inversion T; subst.
    cbn [cm_exec]. apply IH; [assumption|]. apply exec_cm_step; assumption.
  Qed.
End History.

(* a second error finds every component poisoned and changes nothing (conn_error_again) *)
Lemma poisoned_cm_exec : forall e ops m idx, Poisoned e m -> Poisoned e (cm_exec m idx ops).
Proof.
  intros e ops m idx. apply (exec_cm_exec (Poisoned e)) with (allowed := fun _ => True).
  - exact (evolves_errs (Some e)).
  - intros _ e2 a _ _ HP. rewrite (conn_error_again e) by exact HP. exact HP.
  - apply Forall_forall. intros; exact I.
Qed.

(* the whole statement over histories: whatever happened before (as long as the state is clean), after
   the connection error e and ANY further history of operations of any kind, the connection is poisoned
   with e — so every clause of c17_release / c17_release_no_data applies to the next operation *)
Lemma p_c17_release_history : forall e m idx ops idx',
  Clean m -> Poisoned e (cm_exec (conn_error e m) idx ops) /\
  forall t k, let r := poll (cm_exec (conn_error e m) idx' ops) t k in
              fst (snd r) <> 0%Z /\ (fst (snd r) = 2%Z -> snd (snd r) = Z.of_N e).
Proof.
  intros e m idx ops idx' C. split.
  - apply poisoned_cm_exec. apply conn_error_poisoned. exact C.
  - intros t k. cbv zeta.
    pose proof (poisoned_poll e _ t k (poisoned_cm_exec e ops _ idx' (conn_error_poisoned e m C))) as Q.
    cbv zeta in Q. destruct Q as (A & B & _). split; assumption.
Qed.

Lemma p_c17_init_clean : forall fix23 cfg m, cm_init fix23 cfg = Some m -> Clean m.
Proof.
  intros fix23 cfg m H. unfold cm_init in H.
  destruct cfg as [|a [|b [|c [|d [|f [|g r]]]]]]; try discriminate. inversion H; subst.
  unfold Clean. cbn. repeat split; constructor.
Qed.

(* tag 21 = the connection error, tag 24 = a poll racing it *)
Lemma clean_cm_exec : forall ops m idx, Forall (fun o => fst o <> 21 /\ fst o <> 24) ops -> Clean m -> Clean (cm_exec m idx ops).
Proof.
  apply (exec_cm_exec Clean (evolves_errs None) (fun tag => tag <> 21 /\ tag <> 24)).
  intros tag e m [N1 N2] [E|E]; contradiction.
Qed.

Lemma clean_release : forall e m after, Clean m -> c_fix23 m = true ->
  (forall t, In t (registered m) -> In t (c_woken (conn_error e m))) /\
  registered (conn_error e m) = [] /\
  forall idx, Poisoned e (cm_exec (conn_error e m) idx after).
Proof.
  intros e m after C F.
  split; [intros t; apply conn_error_woken; assumption|].
  split; [apply conn_error_cleared; assumption|].
  intros idx. apply poisoned_cm_exec. apply conn_error_poisoned. exact C.
Qed.
