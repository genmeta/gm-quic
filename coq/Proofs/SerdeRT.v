(* C20 — round-trip lemmas for the generic serde model (Model/Serde.v); independent of the schema table. *)
From Coq Require Import List ZArith Bool Lia.
From GQ Require Import Model.Serde.
Import ListNotations.
Local Open Scope Z_scope.

Lemma str_eqb_spec : forall a b, reflect (a = b) (str_eqb a b).
Proof.
  induction a as [|x a IH]; intros [|y b]; cbn; try (constructor; congruence).
  destruct (Z.eqb_spec x y) as [->|N]; cbn; [|constructor; congruence].
  destruct (IH b) as [->|N]; constructor; congruence.
Qed.

Lemma str_eqb_refl : forall a, str_eqb a a = true.
Proof. intros a. destruct (str_eqb_spec a a); [reflexivity|contradiction]. Qed.

Lemma mem_str_In : forall x l, mem_str x l = true <-> In x l.
Proof.
  induction l as [|y l IH]; cbn; [split; [discriminate|contradiction]|].
  destruct (str_eqb_spec x y) as [->|N]; cbn [orb]; [split; auto|].
  rewrite IH. split; [auto|]. intros [E|H]; [destruct N; auto|exact H].
Qed.

Lemma mem_str_app : forall x a b, mem_str x (a ++ b) = mem_str x a || mem_str x b.
Proof. induction a; cbn; intros; [reflexivity|]. rewrite IHa. apply orb_assoc. Qed.

Lemma nodupb_app : forall a b, nodupb (a ++ b) = true ->
  nodupb a = true /\ nodupb b = true /\ (forall x, In x a -> In x b -> False).
Proof.
  induction a; cbn; intros b H.
  - split; [reflexivity|]. split; [exact H|]. intros x [].
  - apply andb_true_iff in H as [H1 H2]. rewrite mem_str_app in H1.
    apply negb_true_iff, orb_false_iff in H1 as [H1 H1'].
    destruct (IHa b H2) as [A [B C]]. split; [rewrite H1, A; reflexivity|]. split; [exact B|].
    intros x [Hx|Hx] Hb.
    + subst. apply mem_str_In in Hb. rewrite Hb in H1'. discriminate.
    + exact (C x Hx Hb).
Qed.

Lemma disjointb_spec : forall a b, disjointb a b = true -> forall x, In x a -> In x b -> False.
Proof.
  unfold disjointb. intros a b H x Ha Hb. rewrite forallb_forall in H. specialize (H x Ha).
  apply negb_true_iff in H. apply mem_str_In in Hb. congruence.
Qed.

Lemma lookup_some_in : forall key m j, lookup key m = Some j -> In key (map fst m).
Proof.
  induction m as [|[k0 j0] m IH]; cbn; intros j H; [discriminate|].
  destruct (str_eqb_spec key k0) as [->|_]; [left; reflexivity | right; eapply IH; eauto].
Qed.

Lemma in_keys_lookup : forall key m, lookup key m = None -> ~ In key (map fst m).
Proof.
  induction m as [|[k0 j] m IH]; cbn; intros H; [tauto|].
  destruct (str_eqb key k0) eqn:E; [discriminate|]. intros [A|A].
  - subst. rewrite str_eqb_refl in E. discriminate.
  - apply IH; assumption.
Qed.

Lemma lookup_none : forall key m, ~ In key (map fst m) -> lookup key m = None.
Proof.
  intros key m H. destruct (lookup key m) eqn:L; [|reflexivity]. destruct H. exact (lookup_some_in _ _ _ L).
Qed.

Lemma lookup_app : forall key a b,
  lookup key (a ++ b) = match lookup key a with Some j => Some j | None => lookup key b end.
Proof.
  induction a as [|[k' j] a IH]; cbn; intros; [reflexivity|]. destruct (str_eqb key k'); [reflexivity|apply IH].
Qed.

Lemma remove_key_own : forall tag j m, ~ In tag (map fst m) -> remove_key tag ((tag, j) :: m) = m.
Proof.
  intros tag j m H. unfold remove_key. cbn [filter fst]. rewrite str_eqb_refl. cbn [negb].
  induction m as [|[k' j'] m IH]; cbn [filter fst]; [reflexivity|].
  destruct (str_eqb_spec tag k') as [->|_]; [destruct H; left; reflexivity|].
  cbn [negb]. rewrite IH; [reflexivity|]. intro Hin. apply H. right. exact Hin.
Qed.

(* an object M agrees with the object `own` on a set of keys; a struct or enum flattened into an enclosing
   object is read back from any M that agrees with its own members on its static keys *)
Definition agree (keys : list str) (M own : list (str * json)) : Prop :=
  forall key, In key keys -> lookup key M = lookup key own.

Lemma agree_refl : forall keys m, agree keys m m.
Proof. intros keys m key _. reflexivity. Qed.

Lemma agree_app : forall ka kb M a b, agree (ka ++ kb) M (a ++ b) ->
  incl (map fst a) ka -> incl (map fst b) kb -> (forall x, In x ka -> In x kb -> False) ->
  agree ka M a /\ agree kb M b.
Proof.
  intros ka kb M a b A Ha Hb D.
  split; intros key Hk; rewrite (A key) by (apply in_app_iff; auto); rewrite lookup_app.
  - destruct (lookup key a); [reflexivity|]. apply lookup_none. intro Hin. exact (D key Hk (Hb key Hin)).
  - rewrite (lookup_none key a); [reflexivity|]. intro Hin. exact (D key (Ha key Hin) Hk).
Qed.

(* custom fields whose keys avoid the static keys do not disturb them ... *)
Lemma agree_extra : forall keys a ex, disjointb (map fst ex) keys = true -> agree keys (a ++ ex) a.
Proof.
  intros keys a ex D key Hk. rewrite lookup_app. destruct (lookup key a); [reflexivity|].
  apply lookup_none. intro Hin. exact (disjointb_spec _ _ D key Hin Hk).
Qed.

(* ... and are exactly what the catch-all collects *)
Lemma filter_static : forall keys a ex, incl (map fst a) keys -> disjointb (map fst ex) keys = true ->
  filter (fun kv : str * json => negb (mem_str (fst kv) keys)) (a ++ ex) = ex.
Proof.
  intros keys a ex Ha Hex. induction a as [|[k0 j] a IH]; cbn [app].
  - induction ex as [|[k0 j] ex IH]; [reflexivity|]. cbn in *.
    apply andb_true_iff in Hex as [-> Hex]. f_equal. exact (IH Hex).
  - cbn [filter fst]. rewrite (proj2 (mem_str_In k0 keys)) by (apply Ha; left; reflexivity).
    apply IH. exact (fun x Hx => Ha x (or_intror Hx)).
Qed.

Lemma unhexdig_hexdig : forall n, 0 <= n < 16 -> unhexdig (hexdig n) = Some n.
Proof.
  intros n H. unfold hexdig, unhexdig. destruct (Z.ltb_spec n 10).
  - rewrite (Zle_imp_le_bool 48), (Zle_imp_le_bool (48 + n) 57) by lia. cbn [andb]. f_equal. lia.
  - rewrite (proj2 (Z.leb_gt (87 + n) 57)), andb_false_r by lia.
    rewrite (Zle_imp_le_bool 97), (Zle_imp_le_bool (87 + n) 102) by lia. cbn [andb]. f_equal. lia.
Qed.

Lemma isbyte_nibbles : forall z, isbyte z = true ->
  0 <= z / 16 < 16 /\ 0 <= z mod 16 < 16 /\ 16 * (z / 16) + z mod 16 = z.
Proof.
  unfold isbyte. intros z H. apply andb_true_iff in H as [A B]. apply Z.leb_le in A, B.
  pose proof (Z.div_mod z 16). pose proof (Z.mod_pos_bound z 16). lia.
Qed.

Lemma unhex_hex : forall l, forallb isbyte l = true -> unhex (hex_of l) = Some l.
Proof.
  induction l as [|b l IH]; intros H; [reflexivity|].
  cbn [forallb] in H. apply andb_true_iff in H as [Hb Hl].
  destruct (isbyte_nibbles _ Hb) as (Hh & Hlo & Hs).
  change (hex_of (b :: l)) with (hexdig (b / 16) :: hexdig (b mod 16) :: hex_of l).
  cbn [unhex]. rewrite !unhexdig_hexdig by assumption. rewrite (IH Hl), Hs. reflexivity.
Qed.

Lemma strip_prefix_app : forall p x, strip_prefix p (p ++ x) = Some x.
Proof. induction p; cbn; intros; [destruct x; reflexivity|]. rewrite Z.eqb_refl. apply IHp. Qed.

Lemma parse_hex_byte : forall z, isbyte z = true -> parse_hex_u8 (hex_byte z) = Some z.
Proof.
  intros z H. destruct (isbyte_nibbles _ H) as (Hh & Hlo & Hs).
  unfold parse_hex_u8, hex_byte. cbn [radix16]. rewrite !unhexdig_hexdig by assumption.
  replace (16 * (16 * 0 + z / 16) + z mod 16) with z by lia.
  unfold isbyte in H. apply andb_true_iff in H as [_ ->]. reflexivity.
Qed.

Lemma hex_of_length : forall l, List.length (hex_of l) = (2 * List.length l)%nat.
Proof. induction l; cbn; [reflexivity|]. fold (hex_of l). rewrite IHl. lia. Qed.

Lemma mapM_map : forall {A B} (f : A -> option B) (g : B -> A) (l : list B),
  (forall x, In x l -> f (g x) = Some x) -> mapM f (map g l) = Some l.
Proof.
  induction l; cbn; intros H; [reflexivity|]. rewrite (H a) by (left; reflexivity).
  rewrite IHl by (intros; apply H; right; assumption). reflexivity.
Qed.

Scheme schema_mut := Induction for schema Sort Prop
  with fields_mut := Induction for fields Sort Prop
  with flist_mut := Induction for flist Sort Prop
  with variants_mut := Induction for variants Sort Prop
  with vshape_mut := Induction for vshape Sort Prop.

Definition is_unt (t : tagging) : bool := match t with TUntagged => true | _ => false end.

Definition nonnull (s : schema) := emits_null s = false -> forall v, conformsb s v = true -> ser s v <> JNull.
Definition nonnull_variants (vs : variants) := forall t i p, en_variants (is_unt t) vs = false ->
  conf_variants vs i p = true -> ser_variants t vs i p <> JNull.
Definition nonnull_shape (sh : vshape) := match sh with ShNew s => nonnull s | _ => True end.

(* a variant is written bare (null for a unit variant, else its payload) exactly when it is an untagged alternative;
   under a tag it is a string or an object *)
Lemma wrap_bare : forall t name untag unit pj,
  if is_unt t || untag then wrap t name untag unit pj = (if unit then JNull else pj)
  else wrap t name untag unit pj <> JNull.
Proof. intros [] name [] [] pj; cbn; congruence. Qed.

Lemma nonnull_all : forall s, nonnull s.
Proof.
  (* nothing is claimed of fields and field lists; a leaf, a sequence, a map or a struct never serialises a
     conforming value to null, SOpt is excluded by the hypothesis, VNil has no conforming value *)
  apply (schema_mut nonnull (fun _ => True) (fun _ => True) nonnull_variants nonnull_shape);
    unfold nonnull, nonnull_variants, nonnull_shape; try (intros; exact I);
    try (intros; match goal with v : value |- _ => destruct v; cbn in *; congruence end).
  - (* SEnum *) intros t vs IH E v C. destruct v; cbn [conformsb] in C; try discriminate. cbn [ser].
    apply andb_true_iff in C as [C _]. apply IH; [|exact C]. cbn in E. destruct t; exact E.
  - (* SRefine *) intros p s IH E v C. cbn in E, C |- *. apply andb_true_iff in C as [C _]. apply IH; assumption.
  - (* SNamed *) intros n s IH E v C. cbn in E, C |- *. apply IH; assumption.
  - (* VCons *) intros name untag sh IHsh r IHr t i p E C.
    cbn [en_variants] in E. apply orb_false_iff in E as [E1 E2].
    destruct i; cbn [conf_variants ser_variants] in *; [|apply IHr; assumption].
    (* written bare, the variant is not unit, and a newtype payload is itself never null *)
    intro N. pose proof (wrap_bare t name untag (is_unit sh) (ser_shape sh p)) as B.
    destruct (is_unt t || untag); [|exact (B N)]. rewrite B in N. destruct sh; try discriminate.
    + exact (IHsh E1 p C N).
    + cbn in C, N. destruct p; discriminate.
  - (* ShNew *) intros s IH. exact IH.
Qed.

Lemma nth_variant_conf : forall vs i p, conf_variants vs i p = true ->
  exists name untag sh, nth_variant vs i = Some (name, untag, sh) /\ conf_shape sh p = true.
Proof.
  induction vs as [|name untag sh r IH]; intros i p H; cbn in *; [discriminate|].
  destruct i; [exists name, untag, sh; split; [reflexivity|exact H] | apply IH; exact H].
Qed.

Lemma ser_variants_nth : forall t vs i p name untag sh, nth_variant vs i = Some (name, untag, sh) ->
  ser_variants t vs i p = wrap t name untag (is_unit sh) (ser_shape sh p).
Proof.
  induction vs as [|n u s r IH]; intros i p name untag sh H; cbn in *; [discriminate|].
  destruct i; [inversion H; subst; reflexivity | apply IH; exact H].
Qed.

Lemma variants_all_nth : forall (f : bool -> vshape -> bool) (g : variants -> bool),
  (forall n u sh r, g (VCons n u sh r) = f u sh && g r) ->
  forall vs i n u sh, g vs = true -> nth_variant vs i = Some (n, u, sh) -> f u sh = true.
Proof.
  intros f g G. induction vs as [|n0 u0 s0 r IH]; intros i n u sh H E; cbn in E; [discriminate|].
  rewrite G in H. apply andb_true_iff in H as [H1 H2].
  destruct i; [inversion E; subst; exact H1 | eapply IH; eauto].
Qed.

Lemma no_untag_nth : forall vs i name untag sh, no_untag vs = true ->
  nth_variant vs i = Some (name, untag, sh) -> untag = false.
Proof.
  intros vs i name untag sh H E. apply negb_true_iff.
  exact (variants_all_nth (fun u _ => negb u) no_untag (fun _ _ _ _ => eq_refl) _ _ _ _ _ H E).
Qed.

Lemma nth_tagged_name : forall vs i name sh, nth_variant vs i = Some (name, false, sh) -> In name (tagged_names vs).
Proof.
  induction vs as [|n u s r IH]; intros i name sh E; cbn in *; [discriminate|].
  destruct i; [inversion E; subst; left; reflexivity|]. destruct u; [|right]; eapply IH; eauto.
Qed.

Lemma conformsb_struct : forall regs flats any v, conformsb (SStruct regs flats any) v = true ->
  exists lr lf ex, v = VStruct lr lf ex /\ conf_fields regs lr = true /\ conf_flats flats lf = true
    /\ (any || is_nil ex) = true /\ nodupb (map fst ex) = true
    /\ disjointb (map fst ex) (reg_keys regs ++ flats_keys flats) = true.
Proof.
  intros regs flats any v C. destruct v as [| | | | | | | |lr lf ex| |]; try discriminate.
  cbn [conformsb] in C. repeat (apply andb_true_iff in C; destruct C as [C ?]).
  exists lr, lf, ex. repeat split; assumption.
Qed.

Lemma conformsb_enum : forall t vs v, conformsb (SEnum t vs) v = true ->
  exists i p name untag sh, v = VEnum i p /\ nth_variant vs i = Some (name, untag, sh) /\ conf_shape sh p = true
    /\ (if is_unt t || untag then selected t vs i p else true) = true.
Proof.
  intros t vs v C. destruct v as [| | | | | | | | |i p|]; try discriminate.
  cbn [conformsb] in C. apply andb_true_iff in C as [C1 C2].
  destruct (nth_variant_conf _ _ _ C1) as (name & untag & sh & E & Cs). exists i, p, name, untag, sh.
  unfold is_untag_variant in C2. rewrite E in C2. destruct t; auto.
Qed.

Lemma conf_fields_cons : forall key sk d s r l, conf_fields (FCons key sk d s r) l = true ->
  exists v l', l = v :: l' /\ conformsb s v = true /\ (skip_ok sk d s || negb (skipped sk v)) = true
    /\ conf_fields r l' = true.
Proof.
  intros key sk d s r l C. destruct l as [|v l']; [discriminate|]. cbn [conf_fields] in C.
  repeat (apply andb_true_iff in C; destruct C as [C ?]). exists v, l'. auto.
Qed.

Lemma conf_flats_cons : forall s r l, conf_flats (FLCons s r) l = true ->
  exists v l', l = v :: l' /\ conformsb s v = true /\ conf_flats r l' = true.
Proof.
  intros s r l C. destruct l as [|v l']; [discriminate|]. cbn [conf_flats] in C.
  apply andb_true_iff in C. destruct C. exists v, l'. auto.
Qed.

Lemma wf_struct : forall regs flats any, wf (SStruct regs flats any) = true ->
  wf_fields regs = true /\ wf_flats flats = true /\ nodupb (reg_keys regs ++ flats_keys flats) = true.
Proof.
  intros regs flats any W. cbn [wf] in W. repeat (apply andb_true_iff in W; destruct W as [W ?]). auto.
Qed.

Lemma wf_enum_nth : forall t vs i name untag sh, wf (SEnum t vs) = true -> nth_variant vs i = Some (name, untag, sh) ->
  shape_ok t untag sh = true /\ wf_shape sh = true /\ nodupb (tagged_names vs) = true.
Proof.
  intros t vs i name untag sh W E. cbn [wf] in W. apply andb_true_iff in W as [W1 W2].
  pose proof (variants_all_nth (fun u sh => shape_ok t u sh && wf_shape sh) (wf_variants t) (fun _ _ _ _ => eq_refl)
                _ _ _ _ _ W1 E) as H.
  apply andb_true_iff in H. destruct H. auto.
Qed.

Lemma de_named_nth : forall vs i name sh ps, nodupb (tagged_names vs) = true ->
  nth_variant vs i = Some (name, false, sh) ->
  de_named vs name ps = match de_shape sh ps with Some p => Some (i, p) | None => None end.
Proof.
  induction vs as [|n u s r IH]; intros i name sh ps N E; cbn in *; [discriminate|].
  destruct i.
  - inversion E; subst. cbn. rewrite str_eqb_refl. reflexivity.
  - assert (R : de_named r name ps = match de_shape sh ps with Some p => Some (i, p) | None => None end).
    { apply IH; [|exact E]. destruct u; [exact N|]. cbn in N. apply andb_true_iff in N. apply N. }
    rewrite R. destruct u; cbn; [destruct (de_shape sh ps); reflexivity|].
    destruct (str_eqb_spec n name) as [->|_]; [|destruct (de_shape sh ps); reflexivity].
    (* an earlier tagged variant of the same name would be a duplicate *)
    cbn in N. apply andb_true_iff in N as [N _]. apply negb_true_iff in N.
    apply nth_tagged_name, mem_str_In in E. congruence.
Qed.

Lemma shift_some : forall r i p, shift r = Some (i, p) -> exists i', i = S i' /\ r = Some (i', p).
Proof. intros [[i' p']|] i p H; [injection H as <- <-; eauto|discriminate]. Qed.

Lemma de_named_tagged : forall vs n ps i p, de_named vs n ps = Some (i, p) ->
  exists name sh, nth_variant vs i = Some (name, false, sh).
Proof.
  induction vs as [|n0 u s r IH]; intros n ps i p H; cbn [de_named] in H; [discriminate|].
  destruct (negb u && str_eqb n0 n) eqn:T.
  - destruct (de_shape s ps); [|discriminate]. injection H as <- <-.
    apply andb_true_iff in T as [T _]. apply negb_true_iff in T. subst. cbn. eauto.
  - apply shift_some in H. destruct H as (i' & -> & H). exact (IH _ _ _ _ H).
Qed.

Lemma de_untag_nth : forall all vs j i p, de_untag all vs j = Some (i, p) ->
  exists name untag sh, nth_variant vs i = Some (name, untag, sh) /\ de_shape sh (PJson j) = Some p.
Proof.
  induction vs as [|n0 u s r IH]; intros j i p H; cbn [de_untag] in H; [discriminate|].
  destruct (all || u); [revert H; destruct (match s with ShUnit => _ | _ => _ end) as [p0|] eqn:D; intro H|].
  - injection H as <- <-. exists n0, u, s. split; [reflexivity|].
    destruct s; [destruct j; try discriminate|..]; exact D.
  - apply shift_some in H. destruct H as (i' & -> & H). exact (IH _ _ _ H).
  - apply shift_some in H. destruct H as (i' & -> & H). exact (IH _ _ _ H).
Qed.

Definition tagged_of (t : tagging) (vs : variants) (j : json) : option (nat * value) :=
  match t with
  | TUntagged => None
  | TExt =>
      match j with
      | JStr n => de_named vs n PNone
      | JObj [(n, pj)] => de_named vs n (PJson pj)
      | _ => None
      end
  | TInt tag =>
      match j with
      | JObj m => match lookup tag m with
                  | Some (JStr n) => de_named vs n (PJson (JObj (remove_key tag m)))
                  | _ => None
                  end
      | _ => None
      end
  | TAdj tag c =>
      match j with
      | JObj m => match lookup tag m with
                  | Some (JStr n) =>
                      de_named vs n (match lookup c m with Some pj => PJson pj | None => PNone end)
                  | _ => None
                  end
      | _ => None
      end
  end.

Lemma de_enum_unfold : forall t vs j,
  de (SEnum t vs) j =
  match tagged_of t vs j with
  | Some (i, p) => Some (VEnum i p)
  | None => match de_untag (is_unt t) vs j with Some (i, p) => Some (VEnum i p) | None => None end
  end.
Proof. intros. destruct t; reflexivity. Qed.

Lemma tagged_of_tagged : forall t vs j i p, tagged_of t vs j = Some (i, p) ->
  is_unt t = false /\ exists name sh, nth_variant vs i = Some (name, false, sh).
Proof.
  intros t vs j i p H. destruct t; cbn in H; try discriminate; (split; [reflexivity|]).
  - destruct j; try discriminate; [eapply de_named_tagged; eauto|].
    destruct m as [|[n pj] [|]]; try discriminate. eapply de_named_tagged; eauto.
  - destruct j; try discriminate. destruct (lookup tag m) as [[]|]; try discriminate. eapply de_named_tagged; eauto.
  - destruct j; try discriminate. destruct (lookup tag m) as [[]|]; try discriminate. eapply de_named_tagged; eauto.
Qed.

Lemma keys_ser_fields : forall fs l, incl (map fst (ser_fields fs l)) (reg_keys fs).
Proof.
  induction fs as [|k0 sk d s r IH]; intros [|v l]; try apply incl_nil_l.
  cbn [ser_fields reg_keys]. rewrite map_app. apply incl_app; [|apply incl_tl, IH].
  destruct (skipped sk v); [apply incl_nil_l|]. intros x [<-|[]]. left. reflexivity.
Qed.

(* a schema that may be flattened into an enclosing object reads only its static keys of that object ... *)
Lemma de_fields_local : forall fs M M', agree (reg_keys fs) M M' -> de_fields fs M = de_fields fs M'.
Proof.
  induction fs as [|key sk d s r IH]; intros M M' A; [reflexivity|]. cbn [de_fields].
  rewrite (A key (or_introl eq_refl)), (IH M M' (fun x Hx => A x (or_intror Hx))). reflexivity.
Qed.

Lemma de_untag_tagged : forall vs j, no_untag vs = true -> de_untag false vs j = None.
Proof.
  induction vs as [|n u sh r IH]; intros j H; [reflexivity|]. cbn [no_untag] in H.
  apply andb_true_iff in H as [U H]. apply negb_true_iff in U. subst u. cbn [de_untag orb]. rewrite (IH j H). reflexivity.
Qed.

Lemma de_local : forall s, flattenable s = true -> forall M M', agree (flat_keys s) M M' ->
  de s (JObj M) = de s (JObj M').
Proof.
  induction s; intros F M M' A; try discriminate F.
  - (* a struct is its regular fields *) destruct flats; [|discriminate F]. destruct any; [discriminate F|].
    cbn [de de_flats]. rewrite (de_fields_local regs M M' A). reflexivity.
  - (* an adjacently tagged enum looks up tag and content *) destruct t as [| |tag c|]; try discriminate F.
    rewrite !de_enum_unfold. cbn [tagged_of is_unt]. rewrite !(de_untag_tagged vs _ F).
    rewrite (A tag), (A c) by (cbn; auto). reflexivity.
  - cbn [de]. rewrite (IHs F M M' A). reflexivity.
  - exact (IHs F M M' A).
Qed.

(* ... and writes an object with no other keys *)
Lemma ser_flat : forall s, flattenable s = true -> forall v, conformsb s v = true ->
  exists m, ser s v = JObj m /\ incl (map fst m) (flat_keys s).
Proof.
  induction s; intros F v C; try discriminate F.
  - destruct flats; [|discriminate F]. destruct any; [discriminate F|].
    destruct (conformsb_struct _ _ _ _ C) as (lr & lf & ex & -> & _ & C2 & C3 & _).
    destruct lf; [|discriminate]. destruct ex; [|discriminate].
    exists (ser_fields regs lr ++ []). split; [reflexivity|]. rewrite app_nil_r. apply keys_ser_fields.
  - destruct t as [| |tag c|]; try discriminate F.
    destruct (conformsb_enum _ _ _ C) as (i & p & name & untag & sh & -> & E & _).
    pose proof (no_untag_nth _ _ _ _ _ F E). subst untag. cbn [ser]. rewrite (ser_variants_nth _ _ _ _ _ _ _ E).
    eexists. split; [reflexivity|]. destruct (is_unit sh); [intros x [<-|[]]; left; reflexivity|apply incl_refl].
  - cbn [conformsb] in C. apply andb_true_iff in C as [C _]. exact (IHs F v C).
  - exact (IHs F v C).
Qed.

Lemma keys_ser_flats : forall fl l, wf_flats fl = true -> conf_flats fl l = true ->
  incl (map fst (ser_flats fl l)) (flats_keys fl).
Proof.
  induction fl as [|s r IH]; intros l W C; [apply incl_nil_l|].
  cbn [wf_flats] in W. apply andb_true_iff in W as [W W3]. apply andb_true_iff in W as [_ F].
  apply conf_flats_cons in C. destruct C as (v & l' & -> & C1 & C2).
  destruct (ser_flat s F v C1) as (m & E & K). cbn [ser_flats flats_keys]. rewrite E, map_app.
  apply incl_app; [apply incl_appl; exact K|apply incl_appr, IH; assumption].
Qed.

(* regular and flattened fields are read back out of any object that agrees with what they wrote on their static keys *)
Definition rt (s : schema) : Prop := forall v, wf s = true -> conformsb s v = true -> de s (ser s v) = Some v.
Definition rt_fields (fs : fields) : Prop := wf_fields fs = true -> forall l M, conf_fields fs l = true ->
  nodupb (reg_keys fs) = true -> agree (reg_keys fs) M (ser_fields fs l) -> de_fields fs M = Some l.
Definition rt_flats (fl : flist) : Prop := wf_flats fl = true -> forall l M, conf_flats fl l = true ->
  nodupb (flats_keys fl) = true -> agree (flats_keys fl) M (ser_flats fl l) -> de_flats fl M = Some l.
Definition rt_shape (sh : vshape) : Prop :=
  match sh with ShUnit => True | ShNew s => rt s | ShStruct fs => rt_fields fs end.
Definition rt_variants (vs : variants) : Prop :=
  forall i name untag sh, nth_variant vs i = Some (name, untag, sh) -> rt_shape sh.

Lemma missing_skipped : forall sk d s v, skipped sk v = true -> skip_ok sk d s = true -> conformsb s v = true ->
  missing d s = Some v.
Proof.
  intros sk d s v SK OK C. unfold skipped in SK. unfold skip_ok in OK. destruct sk; try discriminate.
  - destruct v; try discriminate. destruct s; try discriminate. destruct d as [[]|]; try discriminate; reflexivity.
  - destruct v; try discriminate.
    + destruct l; try discriminate. destruct s; try discriminate; cbn in C; try discriminate.
      destruct d as [[]|]; try discriminate. destruct l; try discriminate. reflexivity.
    + destruct m; try discriminate. destruct s; try discriminate; cbn in C; try discriminate.
      destruct d as [[]|]; try discriminate. destruct m; try discriminate. reflexivity.
Qed.

Lemma fields_roundtrip : forall key sk d s, rt s -> forall r, rt_fields r -> rt_fields (FCons key sk d s r).
Proof.
  intros key sk d s IHs r IHr W l M C N A.
  cbn [wf_fields] in W. apply andb_true_iff in W as [W1 W2].
  apply conf_fields_cons in C. destruct C as (v & l' & -> & C1 & C2 & C3).
  cbn [reg_keys ser_fields] in N, A. destruct (nodupb_app [key] _ N) as (_ & N2 & D).
  destruct (agree_app [key] (reg_keys r) M _ _ A) as [Ak Ar]; [| |exact D|].
  { destruct (skipped sk v); [apply incl_nil_l|apply incl_refl]. }
  { apply keys_ser_fields. }
  cbn [de_fields]. rewrite (IHr W2 l' M C3 N2 Ar), (Ak key (or_introl eq_refl)).
  destruct (skipped sk v) eqn:SK; cbn [lookup].
  - rewrite orb_false_r in C2. rewrite (missing_skipped _ _ _ _ SK C2 C1). reflexivity.
  - rewrite str_eqb_refl, (IHs v W1 C1). reflexivity.
Qed.

Lemma flats_roundtrip : forall s, rt s -> forall r, rt_flats r -> rt_flats (FLCons s r).
Proof.
  intros s IHs r IHr W l M C N A.
  cbn [wf_flats] in W. apply andb_true_iff in W as [W W3]. apply andb_true_iff in W as [W1 F].
  apply conf_flats_cons in C. destruct C as (v & l' & -> & C1 & C2).
  destruct (ser_flat s F v C1) as (m & E & K). cbn [flats_keys ser_flats] in N, A. rewrite E in A. cbn [members] in A.
  destruct (nodupb_app _ _ N) as (_ & N2 & D).
  destruct (agree_app _ _ M _ _ A K (keys_ser_flats _ _ W3 C2) D) as [As Ar].
  cbn [de_flats]. rewrite (de_local s F M m As), <- E, (IHs v W1 C1), (IHr W3 l' M C2 N2 Ar). reflexivity.
Qed.

(* the parts of a struct's object have disjoint key sets: each is found by its reader, the catch-all gets the rest *)
Lemma struct_roundtrip : forall regs, rt_fields regs -> forall flats, rt_flats flats -> forall any,
  rt (SStruct regs flats any).
Proof.
  intros regs IHf flats IHfl any v W C.
  destruct (conformsb_struct _ _ _ _ C) as (lr & lf & ex & -> & C1 & C2 & C3 & _ & C5).
  destruct (wf_struct _ _ _ W) as (W1 & W2 & W3). destruct (nodupb_app _ _ W3) as (N1 & N2 & D).
  pose proof (keys_ser_fields regs lr) as Kr. pose proof (keys_ser_flats _ _ W2 C2) as Kf.
  destruct (agree_app _ _ _ _ _ (agree_extra _ (ser_fields regs lr ++ ser_flats flats lf) ex C5) Kr Kf D) as [Ar Af].
  cbn [ser de]. rewrite app_assoc, (IHf W1 lr _ C1 N1 Ar), (IHfl W2 lf _ C2 N2 Af).
  destruct any; [|destruct ex; [reflexivity|discriminate]].
  rewrite filter_static; [reflexivity| |exact C5]. rewrite map_app. apply incl_app; [apply incl_appl|apply incl_appr]; assumption.
Qed.

Lemma conf_shape_unit : forall p, conf_shape ShUnit p = true -> p = VUnit.
Proof. intros p H. cbn in H. destruct p; try discriminate. destruct regs, flats, extra; try discriminate. reflexivity. Qed.

(* a variant is read back from the payload source `ps` that `de` hands it when that is what it wrote; a unit variant
   does not look *)
Lemma de_shape_own : forall sh p ps, rt_shape sh -> wf_shape sh = true -> conf_shape sh p = true ->
  (is_unit sh = false -> ps = PJson (ser_shape sh p)) -> de_shape sh ps = Some p.
Proof.
  intros [|s|fs] p ps H W C K.
  - apply conf_shape_unit in C. subst. reflexivity.
  - rewrite (K eq_refl). exact (H p W C).
  - rewrite (K eq_refl). cbn in W, C. apply andb_true_iff in W as [W1 W2].
    destruct p; try discriminate. destruct flats; try discriminate. destruct extra; try discriminate.
    cbn. rewrite (H W1 regs _ C W2 (agree_refl _ _)). reflexivity.
Qed.

Lemma de_named_own : forall vs i name sh p ps, rt_shape sh -> wf_shape sh = true -> conf_shape sh p = true ->
  nodupb (tagged_names vs) = true -> nth_variant vs i = Some (name, false, sh) ->
  (is_unit sh = false -> ps = PJson (ser_shape sh p)) -> de_named vs name ps = Some (i, p).
Proof.
  intros vs i name sh p ps HP Wsh Cs N E K.
  rewrite (de_named_nth _ _ _ _ ps N E), (de_shape_own _ _ _ HP Wsh Cs K). reflexivity.
Qed.

Lemma tagged_roundtrip : forall t vs i name sh p, rt_shape sh -> conf_shape sh p = true ->
  wf (SEnum t vs) = true -> is_unt t = false -> nth_variant vs i = Some (name, false, sh) ->
  tagged_of t vs (wrap t name false (is_unit sh) (ser_shape sh p)) = Some (i, p).
Proof.
  intros t vs i name sh p HP Cs W Tn E. destruct (wf_enum_nth _ _ _ _ _ _ W E) as (Sok & Wsh & N).
  destruct t as [|tag|tag c|]; [| | |discriminate].
  - (* externally tagged: unit variants only *)
    destruct sh; try discriminate. cbn. apply (de_named_own _ _ _ ShUnit); assumption || discriminate.
  - (* internally tagged: the fields of a struct variant sit beside the tag, which is none of their keys,
       so the object without the tag is the variant's own *)
    unfold wrap. cbn [tagged_of lookup]. rewrite str_eqb_refl. apply (de_named_own _ _ _ sh); try assumption.
    destruct sh as [| |fs]; [discriminate|discriminate|]. intros _. cbn in Sok, Cs. apply negb_true_iff in Sok.
    destruct p; try discriminate. cbn [is_unit ser_shape members]. rewrite remove_key_own; [reflexivity|].
    intro Hin. apply keys_ser_fields, mem_str_In in Hin. congruence.
  - (* adjacently tagged: the payload sits under the content key, which is not the tag *)
    cbn in Sok. apply negb_true_iff in Sok. unfold wrap. cbn [tagged_of lookup].
    rewrite str_eqb_refl. destruct (str_eqb_spec c tag) as [->|_]; [rewrite str_eqb_refl in Sok; discriminate|].
    apply (de_named_own _ _ _ sh); try assumption.
    destruct sh; cbn [is_unit lookup]; rewrite ?str_eqb_refl; [discriminate|reflexivity..].
Qed.

(* an untagged alternative: that `de` selects it is the side condition of conformsb; its payload round-trips *)
Lemma untagged_roundtrip : forall t vs i name untag sh p w,
  rt_shape sh -> wf_shape sh = true -> conf_shape sh p = true ->
  nth_variant vs i = Some (name, untag, sh) -> (is_unt t || untag) = true ->
  de (SEnum t vs) (wrap t name untag (is_unit sh) (ser_shape sh p)) = Some (VEnum i w) -> w = p.
Proof.
  intros t vs i name untag sh p w HP Wsh Cs E U D. rewrite de_enum_unfold in D.
  pose proof (wrap_bare t name untag (is_unit sh) (ser_shape sh p)) as B. rewrite U in B. rewrite B in D.
  destruct (tagged_of t vs _) as [[i1 p1]|] eqn:T.
  - exfalso. inversion D; subst. apply tagged_of_tagged in T. destruct T as [T1 [n' [sh' T2]]].
    rewrite E in T2. inversion T2; subst. rewrite T1 in U. discriminate.
  - destruct (de_untag (is_unt t) vs _) as [[i1 p1]|] eqn:DU; [|discriminate].
    inversion D; subst. apply de_untag_nth in DU. destruct DU as [n' [u' [sh' [E' DA]]]].
    rewrite E in E'. inversion E'; subst.
    rewrite (de_shape_own _ _ _ HP Wsh Cs) in DA; [congruence|].
    destruct sh'; [discriminate|reflexivity..].
Qed.

Lemma enum_roundtrip : forall t vs, rt_variants vs -> rt (SEnum t vs).
Proof.
  intros t vs IH v W C. destruct (conformsb_enum _ _ _ C) as (i & p & name & untag & sh & -> & E & Cs & C2).
  destruct (wf_enum_nth _ _ _ _ _ _ W E) as (_ & Wsh & _). pose proof (IH _ _ _ _ E) as HP.
  cbn [ser]. rewrite (ser_variants_nth _ _ _ _ _ _ _ E). destruct (is_unt t || untag) eqn:U.
  - unfold selected in C2. cbn [ser] in C2. rewrite (ser_variants_nth _ _ _ _ _ _ _ E) in C2.
    destruct (de (SEnum t vs) _) as [[| | | | | | | | |i0 w|]|] eqn:D; try discriminate.
    apply Nat.eqb_eq in C2. subst i0. rewrite (untagged_roundtrip _ _ _ _ _ _ _ _ HP Wsh Cs E U D). reflexivity.
  - apply orb_false_iff in U as [Tn ->].
    rewrite de_enum_unfold, (tagged_roundtrip _ _ _ _ _ _ HP Cs W Tn E). reflexivity.
Qed.

Lemma roundtrip_all : forall s, rt s.
Proof.
  apply (schema_mut rt rt_fields rt_flats rt_variants rt_shape).
  - (* SInt *) intros lo hi [] _ C; try discriminate. cbn in *. rewrite C. reflexivity.
  - (* SFloat *) intros [] _ C; try discriminate; reflexivity.
  - (* SBool *) intros [] _ C; try discriminate; reflexivity.
  - (* SStr *) intros [] _ C; try discriminate; reflexivity.
  - (* SHex *) intros lo hi [] _ C; try discriminate.
    cbn [conformsb] in C. apply andb_true_iff in C as [C1 C2].
    cbn [ser de]. rewrite (unhex_hex _ C1), C2. reflexivity.
  - (* SHexSuffix *) intros p [] _ C; try discriminate.
    cbn [ser de]. rewrite strip_prefix_app, (parse_hex_byte _ C). reflexivity.
  - (* SOpt: null is None because the inner schema never emits null *)
    intros s IH v W C. cbn [wf] in W. apply andb_true_iff in W as [W1 W2]. apply negb_true_iff in W2.
    destruct v; try discriminate; [reflexivity|]. cbn [conformsb] in C.
    pose proof (nonnull_all s W2 v C) as NN. pose proof (IH v W1 C) as R. cbn [ser de].
    destruct (ser s v); [congruence| | | | | |]; rewrite R; reflexivity.
  - (* SSeq *) intros s IH v W C. destruct v; try discriminate.
    cbn [conformsb] in C. rewrite forallb_forall in C.
    cbn [ser de]. rewrite mapM_map; [reflexivity|]. intros x Hx. exact (IH x W (C x Hx)).
  - (* SArr *) intros n s IH v W C. destruct v; try discriminate.
    cbn [conformsb] in C. apply andb_true_iff in C as [C1 C2]. rewrite forallb_forall in C2.
    cbn [ser de]. rewrite map_length, C1.
    rewrite mapM_map; [reflexivity|]. intros x Hx. exact (IH x W (C2 x Hx)).
  - (* SAny *) intros [] _ C; try discriminate; reflexivity.
  - exact struct_roundtrip.
  - exact enum_roundtrip.
  - (* SRefine *) intros p s IH v W C. cbn [conformsb] in C. apply andb_true_iff in C as [C1 C2].
    cbn [ser de]. rewrite (IH v W C1), C2. reflexivity.
  - (* SNamed *) intros n s IH. exact IH.
  - (* FNil *) intros _ l M C _ _. destruct l; [reflexivity|discriminate].
  - exact fields_roundtrip.
  - (* FLNil *) intros _ l M C _ _. destruct l; [reflexivity|discriminate].
  - exact flats_roundtrip.
  - (* VNil *) intros i name untag sh E. discriminate.
  - (* VCons *) intros name untag sh IHsh r IHr i name' untag' sh' E. destruct i; cbn in E.
    + inversion E; subst. exact IHsh.
    + eapply IHr; eauto.
  - exact I.
  - intros s IH. exact IH.
  - intros fs IH. exact IH.
Qed.
