(* Proofs about Model/StreamCtl.v: lookup in the association lists, the RFC's window table, direction
   checks, final size, receive-side detection, the send window of one stream. *)
From Coq Require Import List NArith Bool Lia.
From GQ Require Import Lib.Slice Model.StreamCtl Proofs.Sid.
Import ListNotations.
Local Open Scope N_scope.

Lemma alookup_aupdate {A} (l : list (N * A)) k v k' :
  alookup (aupdate l k v) k'
  = if k =? k' then (match alookup l k with Some _ => Some v | None => None end) else alookup l k'.
Proof.
  induction l as [|[kk vv] tl IH]; cbn [aupdate alookup].
  - destruct (k =? k'); reflexivity.
  - destruct (N.eqb_spec kk k) as [->|Hk].
    + cbn [alookup]. rewrite ?N.eqb_refl. destruct (N.eqb_spec k k'); reflexivity.
    + cbn [alookup]. destruct (N.eqb_spec kk k') as [->|Hk'].
      * destruct (N.eqb_spec k k'); [congruence|reflexivity].
      * rewrite IH. destruct (N.eqb_spec kk k); [congruence|]. reflexivity.
Qed.

Lemma alookup_ainsert {A} (l : list (N * A)) k v k' :
  alookup (ainsert l k v) k' = if k =? k' then Some v else alookup l k'.
Proof.
  induction l as [|[kk vv] tl IH]; cbn [ainsert alookup].
  - destruct (N.eqb_spec k k'); reflexivity.
  - destruct (N.ltb_spec k kk).
    + cbn [alookup]. destruct (N.eqb_spec k k'); [reflexivity|].
      destruct (N.eqb_spec kk k'); reflexivity.
    + destruct (N.eqb_spec kk k) as [->|Hk].
      * cbn [alookup]. destruct (N.eqb_spec k k'); reflexivity.
      * cbn [alookup]. rewrite IH. destruct (N.eqb_spec kk k') as [->|Hk'].
        -- destruct (N.eqb_spec k k'); [congruence|reflexivity].
        -- reflexivity.
Qed.

Lemma alookup_In {A} (l : list (N * A)) k v : alookup l k = Some v -> In (k, v) l.
Proof.
  induction l as [|[k' v'] t IH]; cbn [alookup]; [discriminate|].
  destruct (N.eqb_spec k' k) as [->|NE]; [intro H; injection H as ->; now left|intro H; right; auto].
Qed.

Lemma alookup_key {A} (l : list (N * A)) k v : alookup l k = Some v -> In k (map fst l).
Proof. intro H. exact (in_map fst _ _ (alookup_In _ _ _ H)). Qed.

Lemma in_alookup {A} (l : list (N * A)) k : In k (map fst l) -> exists v, alookup l k = Some v.
Proof.
  induction l as [|[k' v'] t IH]; cbn [map fst alookup]; [intros []|].
  destruct (N.eqb_spec k' k); [eauto|]. intros [H|H]; [contradiction|auto].
Qed.

Lemma alookup_map {A B} (g : A -> B) (l : list (N * A)) k :
  alookup (map (fun kf : N * A => (fst kf, g (snd kf))) l) k = option_map g (alookup l k).
Proof.
  induction l as [|[k' v] t IH]; cbn [map alookup fst snd]; [reflexivity|].
  destruct (k' =? k); [reflexivity|exact IH].
Qed.

Lemma map_aupdate_keep {A B} (f : N * A -> B) (l : list (N * A)) k v v0 :
  alookup l k = Some v0 -> f (k, v) = f (k, v0) -> map f (aupdate l k v) = map f l.
Proof.
  induction l as [|[k' v'] t IH]; cbn [alookup aupdate map]; [reflexivity|].
  destruct (N.eqb_spec k' k) as [->|NE]; intros H Hf.
  - injection H as ->. cbn [map]. now rewrite Hf.
  - cbn [map]. f_equal. apply IH; assumption.
Qed.

Lemma alookup_fold_ainsert {A} (c : A -> bool) (g v : A -> N) x : forall l,
  In x l -> c x = true -> (forall y, In y l -> c y = true -> g y = g x -> v y = v x) ->
  alookup (fold_right (fun y acc => if c y then ainsert acc (g y) (v y) else acc) [] l) (g x) = Some (v x).
Proof.
  induction l as [|y t IH]; intros Hin Hc Hinj; [destruct Hin|]. cbn [fold_right].
  pose proof (fun H => IH H Hc (fun z Hz => Hinj z (or_intror Hz))) as Ht.
  destruct (c y) eqn:Ey.
  - rewrite alookup_ainsert. destruct (N.eqb_spec (g y) (g x)) as [Eg|NE].
    + f_equal. apply Hinj; [now left|exact Ey|exact Eg].
    + destruct Hin as [->|Hin]; [congruence|exact (Ht Hin)].
  - destruct Hin as [->|Hin]; [congruence|exact (Ht Hin)].
Qed.

Lemma Forall_ainsert {A} (Q : N -> Prop) (l : list (N * A)) k v :
  Q k -> Forall Q (map fst l) -> Forall Q (map fst (ainsert l k v)).
Proof.
  intro Hk. induction l as [|[k' v'] t IH]; cbn [ainsert map fst]; intro Hf; [constructor; [exact Hk|constructor]|].
  inversion Hf as [|x l' Hx Ht]; subst. destruct (k <? k'); [constructor; assumption|].
  destruct (k' =? k); cbn [map fst]; constructor; auto.
Qed.

(* RFC 9000 18.2: the send window of a stream is the PEER's parameter for that kind seen from the peer:
   a stream we open is "remote" for the peer; a stream the peer opened is "local" for it *)
Definition rfc_send_window (we_opened : bool) (d : dir) (peer : params) : N :=
  match we_opened, d with
  | true, Bi => p_sdbr peer
  | true, Uni => p_sdu peer
  | false, _ => p_sdbl peer
  end.
(* the receive window we grant is OUR parameter for that kind seen from us *)
Definition rfc_recv_window (we_opened : bool) (d : dir) (loc : params) : N :=
  match we_opened, d with
  | true, _ => p_sdbl loc
  | false, Bi => p_sdbr loc
  | false, Uni => p_sdu loc
  end.

Lemma revise_outs_lookup v s rej k sn' :
  alookup (revise_outs v s rej) k = Some sn' ->
  exists sn, alookup (d_outs s) k = Some sn
             /\ (sn' = sn \/ sn' = snd_revise sn rej (revise_send_window (d_rem s) (sid_dir k))).
Proof.
  unfold revise_outs. induction (d_outs s) as [|[k0 s0] tl IH]; cbn [map alookup fst snd]; [discriminate|].
  destruct (_ && _); cbn [alookup fst];
    (destruct (N.eqb_spec k0 k) as [->|]; [intro E; injection E as <-; eauto|]);
    intro E; destruct (IH E) as (sn & L & D); eauto.
Qed.

Lemma try_accept_err v s sid e : ds_try_accept v s sid = inr e -> e = EStreamLimit.
Proof.
  unfold ds_try_accept. destruct (try_accept_sid _ _ _ _ _) as [[r' res] up].
  destruct res; intro H; [injection H as <-; reflexivity|discriminate|discriminate].
Qed.

(* StreamState is the answer exactly to a frame only the sending half emits ([side] = true) on a
   stream we alone may send on, and to one only the receiving half emits on a stream the peer alone
   may send on *)
Lemma check_sid_state v s sid side :
  ds_check_sid v s sid side = inr EStreamState
  <-> sid_dir sid = Uni /\ (if side then sid_role sid = d_role s else sid_role sid <> d_role s).
Proof.
  unfold ds_check_sid.
  destruct (role_eqb_spec (sid_role sid) (d_role s)) as [R|R], side, (sid_dir sid); cbn [negb].
  (* the answer stands there, except where the stream is accepted, which never answers StreamState *)
  all: split; [intro H|intros [D Hr]]; try discriminate; try contradiction; auto.
  all: apply try_accept_err in H; discriminate H.
Qed.

Definition final_or_flow (v : variant) (x : recver + rerr) : Prop :=
  x = inr EFinalSize \/ (fix13 v = true /\ x = inr EFlowControl).

Lemma recv_data_err v r off len fin e :
  rc_recv_data v r off len fin = inr e ->
  match rc_phase r with
  | PRecv => (e = EFlowControl /\ rc_maxsd r < off + len)
             \/ (e = EFinalSize /\ fin = true /\ off + len < largest (rc_buf r))
  | PSizeKnown f => e = EFinalSize /\ (f < off + len \/ (fin = true /\ off + len <> f))
  | _ => False
  end.
Proof.
  unfold rc_recv_data. destruct (rc_phase r); try discriminate.
  - destruct fin.
    + destruct (fix13 v && _) eqn:F.
      * intro X; injection X as <-. apply andb_true_iff in F. left. split; [reflexivity|apply N.ltb_lt, F].
      * destruct (N.ltb_spec (off + len) (largest (rc_buf r))); [intro X; injection X as <-; auto|].
        destruct (recv _ _ _) as [b' fr]. destruct (all_rcvd _ _); discriminate.
    + destruct (N.ltb_spec (rc_maxsd r) (off + len)); [intro X; injection X as <-; auto|].
      destruct (recv _ _ _); discriminate.
  - destruct (N.ltb_spec final (off + len)); [intro X; injection X as <-; auto|].
    destruct fin, (N.eqb_spec (off + len) final); cbn [andb negb].
    2: intro X; injection X as <-; auto.
    all: destruct (recv _ _ _) as [b' fr]; destruct (all_rcvd _ _); discriminate.
Qed.

Lemma col_extend_len col t : lenN (col_extend col t) = N.max (lenN col) t.
Proof. unfold col_extend. rewrite lenN_app, lenN_repeat. lia. Qed.

Lemma recolour_len l a b i p c : lenN (recolour l a b i p c) = lenN l.
Proof. revert i. induction l as [|x t IH]; intro i; cbn [recolour]; [reflexivity|]. rewrite !lenN_cons, IH. reflexivity. Qed.

Lemma first_idx_bound p l i k : first_idx p l i = Some k -> i <= k < i + lenN l.
Proof.
  revert i. induction l as [|x t IH]; intro i; cbn [first_idx]; [discriminate|].
  rewrite lenN_cons. destruct (p x).
  - intro H; injection H as <-. lia.
  - intro H. apply IH in H. lia.
Qed.

Lemma run_end_bound p l i : i <= run_end p l i <= i + lenN l.
Proof.
  revert i. induction l as [|x t IH]; intro i; cbn [run_end].
  - unfold lenN; cbn. lia.
  - rewrite lenN_cons. destruct (p x); [specialize (IH (i + 1)); lia|lia].
Qed.

Lemma col_sent_le col : col_sent col <= lenN col.
Proof.
  unfold col_sent. destruct (first_idx is_pending col 0) eqn:E; [|lia].
  apply first_idx_bound in E. lia.
Qed.

Lemma pick_spec col fl av col' st e fresh :
  pick col fl av = Some (col', st, e, fresh) ->
  lenN col' = lenN col /\ st <= e <= lenN col
  /\ (exists a, av st = Some a /\ e - st <= a)
  /\ (fresh = true -> e - st <= fl).
Proof.
  unfold pick.
  set (choice := match first_idx is_lost col 0 with Some _ => _ | None => _ end).
  assert (HC : forall s c, choice = Some (s, c) -> s < lenN col).
  { unfold choice. intros s c. destruct (first_idx is_lost col 0) eqn:E.
    - intro H; injection H as <- _. apply first_idx_bound in E. lia.
    - destruct (N.ltb_spec (col_sent col) (lenN col)) as [Hlt|Hge]; cbn [andb]; [|discriminate].
      destruct (negb _); [|discriminate]. intro HH; injection HH as <- _. exact Hlt. }
  destruct choice as [[s c]|]; [|discriminate].
  specialize (HC s c eq_refl).
  destruct (av s) as [a|] eqn:Ea; [|discriminate].
  intro H. injection H as <- -> <- <-.
  pose proof (run_end_bound (col_eqb c) (dropN st col) st) as RB. rewrite lenN_dropN in RB.
  rewrite recolour_len. split; [reflexivity|].
  set (allow := if is_lost c then a else N.min a fl) in *.
  set (e0 := run_end (col_eqb c) (dropN st col) st) in *.
  assert (Ha : allow <= a /\ (is_pending c = true -> allow <= fl))
    by (unfold allow; destruct c; cbn; split; try discriminate; lia).
  set (e := if st + allow <? e0 then st + allow else e0).
  assert (He : st <= e <= lenN col /\ e - st <= allow) by (unfold e; destruct (N.ltb_spec (st + allow) e0); lia).
  clearbody e allow. destruct Ha as [Ha Hfl]. split; [apply He|]. split; [exists a; split; [exact Ea|lia]|].
  intro Hf. specialize (Hfl Hf). lia.
Qed.

(* invariant of one sender: the coloured region never reaches past the stream window or past
   what was written; once the FIN has gone out everything written is inside the window *)
Definition Winv (s : sender) : Prop :=
  lenN (sn_col s) <= sn_window s /\ lenN (sn_col s) <= sn_written s
  /\ (sn_state s = SDataSent -> lenN (sn_col s) = sn_written s).

Lemma Winv_new w h : Winv (new_sender w h).
Proof. unfold Winv, new_sender; cbn. unfold lenN; cbn. split; [lia|split; [lia|discriminate]]. Qed.

(* Winv reads four things of a sender: state, bytes written, window, length of the colouring *)
Lemma Winv_shape s s' :
  Winv s -> sn_written s' = sn_written s -> sn_window s' = sn_window s -> lenN (sn_col s') = lenN (sn_col s) ->
  (sn_state s' = SDataSent -> sn_state s = SDataSent \/ lenN (sn_col s) = sn_written s) -> Winv s'.
Proof. unfold Winv. intros (W1 & W2 & W3) -> -> -> G. split; [exact W1|split; [exact W2|]]. intro E. destruct (G E); auto. Qed.

Lemma try_load_spec s fl av s' r :
  Winv s -> snd_try_load s fl av = (s', r) ->
  Winv s' /\ sn_window s' = sn_window s
  /\ match r with
     | Some (st, e, fresh, _) => st <= e <= sn_window s /\ (fresh = true -> e - st <= fl)
     | None => True
     end.
Proof.
  intros Iv H. pose proof Iv as (W1 & W2 & W3). pose proof (col_sent_le (sn_col s)) as Hs.
  assert (EOS : forall a b, sn_shut s && (a =? b) = true -> a = b)
    by (intros a b E; apply andb_true_iff in E; apply N.eqb_eq, E).
  unfold snd_try_load in H. cbn [with_state sn_col sn_shut sn_written sn_state] in H.
  (* in every branch s' is s with another colouring of the same length and possibly another state;
     it becomes DataSent only with a frame that carries the FIN, which ends at the last byte written
     ([EOS]), and then all that was written is coloured *)
  destruct (pick (sn_col s) fl av) as [[[[col' st] e] fr]|] eqn:P.
  - apply pick_spec in P. destruct P as (L & B & _ & F).
    assert (R : st <= e <= sn_window s /\ (fr = true -> e - st <= fl)) by (split; [lia|exact F]).
    destruct (sn_state s) eqn:St.
    1,2: destruct (sn_shut s && (e =? sn_written s)) eqn:EO; [apply EOS in EO|].
    all: injection H as <- <-; (split; [|split; [reflexivity|first [exact I|exact R]]]).
    all: try exact Iv; apply (Winv_shape s _ Iv); try reflexivity; try exact L;
      cbn [with_col with_state sn_state]; intro E; first [discriminate E|left; exact St|right; lia].
  - destruct (sn_state s) eqn:St; [| |specialize (W3 eq_refl); destruct (sn_finlost s)|].
    1,2: destruct (sn_shut s && (sn_written s =? col_sent (sn_col s))) eqn:EO;
      [apply EOS in EO; destruct (av (col_sent (sn_col s)))|].
    all: injection H as <- <-; (split; [|split; [reflexivity|first [exact I|split; [lia|discriminate]]]]).
    all: try exact Iv; apply (Winv_shape s _ Iv); try reflexivity;
      cbn [with_state sn_state]; intro E; first [discriminate E|left; exact St|right; lia].
Qed.

Lemma p_c11_window_update s v :
  Winv s -> Winv (snd_update_window s v) /\ sn_window (snd_update_window s v) = N.max (sn_window s) v.
Proof.
  intros (W1 & W2 & W3). unfold snd_update_window.
  destruct (N.ltb_spec (sn_window s) v).
  - split; [|cbn; lia]. unfold Winv. cbn [sn_col sn_window sn_written sn_state].
    rewrite col_extend_len. split; [lia|split; [lia|]]. intro HH. specialize (W3 HH). lia.
  - split; [repeat split; auto|lia].
Qed.

Lemma p_c11_window_write s len :
  Winv s -> sn_state s <> SDataSent -> Winv (snd_write s len) /\ sn_window (snd_write s len) = sn_window s.
Proof.
  intros (W1 & W2 & W3) NS. unfold snd_write. destruct (len =? 0); [repeat split; auto|].
  split; [|reflexivity]. unfold Winv. cbn [sn_col sn_window sn_written sn_state].
  rewrite col_extend_len. split; [lia|split; [lia|]]. intro H. contradiction.
Qed.

Lemma p_c11_window_loss s a b f : Winv s -> Winv (snd_may_loss s a b f) /\ sn_window (snd_may_loss s a b f) = sn_window s.
Proof.
  intros I. unfold snd_may_loss. destruct (sn_state s) eqn:St; try (split; [exact I|reflexivity]).
  - split; [|reflexivity]. apply (Winv_shape s _ I); try reflexivity; [apply recolour_len|cbn [with_col sn_state]; congruence].
  - split; [|reflexivity]. apply (Winv_shape s _ I); try reflexivity; [apply recolour_len|intros _; left; exact St].
Qed.

Lemma be_stopped_Winv s : Winv s -> Winv (fst (snd_be_stopped s)).
Proof.
  intro I. unfold snd_be_stopped.
  destruct (sn_state s); cbn [fst]; try exact I; apply (Winv_shape s _ I); try reflexivity; discriminate.
Qed.

Lemma arc_update_Winv sn w : Winv sn -> Winv (arc_update_window sn w).
Proof.
  intro I. unfold arc_update_window. destruct (sn_state sn); try exact I; apply p_c11_window_update; exact I.
Qed.

(* Outgoing::revise_max_stream_data.  A stream whose FIN is out must keep every written byte inside
   the window: the new window has to cover the old one, or, when the sent state is forgotten,
   everything written *)
Lemma revise_Winv sn (rej : bool) w :
  Winv sn -> (sn_state sn = SDataSent -> (if rej then sn_written sn else sn_window sn) <= w) ->
  Winv (snd_revise sn rej w).
Proof.
  intros I G. pose proof I as (W1 & W2 & W3). unfold snd_revise.
  assert (F : sn_state sn <> SDataSent -> Winv (if rej then snd_forget sn else sn)).
  { intro N. destruct rej; [|exact I]. split; [|split]; cbn; [lia|lia|intro E; destruct (N E)]. }
  destruct (sn_state sn) eqn:St; try exact I.
  1,2: apply p_c11_window_update, F; discriminate.
  specialize (G eq_refl). specialize (W3 eq_refl).
  destruct rej; unfold Winv, snd_forget; cbn [sn_col sn_window sn_written sn_state];
    rewrite col_extend_len; [change (lenN (@nil colour)) with 0|]; repeat split; lia.
Qed.
