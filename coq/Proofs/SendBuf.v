(* Proofs about Model/SendBuf.v (property C09).  The boundary list is read through [colr], the colour of
   every byte.  ack_rcvd, may_loss and pick recolour a range ([post]), and are shown to do so by one argument: cut
   the list at the range start, keep the prefix, rebuild the tail ([cut_form], [glue]).  What a SendBuf operation
   does to [Inv], [Tight], written() and sent() is said in one shape ([stepped]); the statements of Properties/C09.v
   hold in every state that satisfies [Inv] (and [Tight]). *)
From Coq Require Import List NArith Bool Lia.
From GQ Require Import Lib.Base Model.SendBuf.
Import ListNotations.
Local Open Scope N_scope.

Lemma colour_eqb_spec a b : reflect (a = b) (colour_eqb a b).
Proof. destruct a, b; constructor; congruence. Qed.

Lemma option_map_map {A B C} (g : B -> C) (h : A -> B) x :
  option_map g (option_map h x) = option_map (fun a => g (h a)) x.
Proof. destruct x; reflexivity. Qed.

Lemma range_spec s e i : reflect (s <= i < e) ((s <=? i) && (i <? e)).
Proof. apply iff_reflect. rewrite andb_true_iff, N.leb_le, N.ltb_lt. reflexivity. Qed.

Fixpoint wfl (lo sz : N) (l : list run) : Prop :=
  match l with
  | [] => True
  | (o, k) :: r => lo <= o /\ o < sz /\ (k = Pending -> r = []) /\ wfl (o + 1) sz r
  end.

Definition no_pending (l : list run) : Prop := Forall (fun x : run => snd x <> Pending) l.

(* where the run that is open in front of [l] ends *)
Definition first_off (sz : N) (l : list run) : N := match l with (o, _) :: _ => o | [] => sz end.

Lemma wfl_from lo lo' sz l : wfl lo sz l -> lo' <= first_off sz l -> wfl lo' sz l.
Proof. destruct l as [|[o k] r]; [trivial|]. cbn [wfl first_off]. intuition. Qed.

Lemma first_off_bounds lo sz l : wfl lo sz l -> lo <= sz -> lo <= first_off sz l <= sz.
Proof. destruct l as [|[o k] r]; cbn [wfl first_off]; lia. Qed.

Lemma wfl_weaken lo lo' sz sz' l : wfl lo sz l -> lo' <= lo -> sz <= sz' -> wfl lo' sz' l.
Proof.
  intros Hw Hlo Hsz. revert lo lo' Hw Hlo; induction l as [|[o k] r IH]; intros lo lo' Hw Hlo; cbn [wfl] in *; [trivial|].
  destruct Hw as (A & B & C & D). repeat split; auto; try lia. apply (IH (o + 1)); [exact D|lia].
Qed.

(* [wfl lo m a] also says that the offsets of [a] lie below [m]: [a] is a piece of a boundary list for the
   bytes [lo, m), to be continued by a piece for [m, sz) *)
Lemma wfl_app lo m sz a t :
  wfl lo m a -> no_pending a -> wfl m sz t -> lo <= m <= sz -> wfl lo sz (a ++ t).
Proof.
  revert lo; induction a as [|[o k] r IH]; intros lo Ha Hn Ht Hm; cbn [app].
  - apply (wfl_weaken _ _ _ _ _ Ht); lia.
  - cbn [wfl] in *. destruct Ha as (A & B & C & D). inversion Hn as [|? ? Hk Hn']; subst. cbn [snd] in Hk.
    split; [exact A|]. split; [lia|]. split; [intro; congruence|]. apply IH; auto. lia.
Qed.

Lemma wfl_split lo sz a o k t :
  wfl lo sz (a ++ (o, k) :: t) -> wfl lo o a /\ no_pending a /\ wfl lo sz ((o, k) :: t).
Proof.
  revert lo; induction a as [|[o' k'] r IH]; intros lo H; [split; [exact I|split; [constructor|exact H]]|].
  cbn [app wfl] in H. destruct H as (A & B & C & D). destruct (IH _ D) as (Ia & In & It).
  assert (Hk : k' <> Pending) by (intro Hk; destruct r; discriminate (C Hk)).
  split; [|split; [constructor; assumption|apply (wfl_weaken _ _ _ _ _ It); lia]].
  cbn [wfl] in It |- *. split; [exact A|]. split; [lia|]. split; [intro; contradiction|exact Ia].
Qed.

Lemma wfl_in lo sz l o k : wfl lo sz l -> In (o, k) l -> lo <= o < sz.
Proof.
  revert lo; induction l as [|[o' k'] r IH]; intros lo H Hin; [destruct Hin|].
  cbn [wfl] in H. destruct H as (A & B & C & D). destruct Hin as [E|Hin]; [injection E as <- <-; lia|].
  apply IH in D; [lia|exact Hin].
Qed.

Lemma wfl_no_pending lo sz d l : wfl lo sz l -> last_colour d l <> Pending -> no_pending l.
Proof.
  revert lo d; induction l as [|[o k] r IH]; intros lo d H Hl; [constructor|].
  cbn [wfl] in H. destruct H as (A & B & C & D). cbn [last_colour] in Hl.
  constructor.
  - cbn [snd]. intro Hk. specialize (C Hk). subst r k. cbn [last_colour] in Hl. congruence.
  - eapply IH; eauto.
Qed.

Lemma last_colour_app d a x : last_colour d (a ++ [x]) = snd x.
Proof. revert d; induction a as [|[o k] r IH]; intros d; destruct x; cbn [app last_colour snd]; [reflexivity|apply IH]. Qed.

Lemma wfl_snoc c s lo l :
  wfl lo s l -> no_pending l -> lo <= s -> c <> Pending ->
  wfl lo (s + 1) (l ++ [(s, c)]) /\ no_pending (l ++ [(s, c)]).
Proof.
  intros H Hn Hs Hc. split.
  - apply wfl_app with (m := s); auto; [|lia]. cbn [wfl]. repeat split; try lia; intro; congruence.
  - apply Forall_app. split; [assumption|]. constructor; [exact Hc|constructor].
Qed.

Lemma col_from_lt cur lo sz l i : wfl lo sz l -> i < lo -> col_from cur l i = cur.
Proof.
  destruct l as [|[o k] r]; cbn [col_from wfl]; [reflexivity|]. intros (A & _) Hi.
  destruct (N.ltb_spec i o); [reflexivity|lia].
Qed.

Lemma col_from_app cur lo m sz a t i :
  wfl lo m a -> wfl m sz t ->
  col_from cur (a ++ t) i = if i <? m then col_from cur a i else col_from (last_colour cur a) t i.
Proof.
  revert cur lo; induction a as [|[o k] r IH]; intros cur lo Ha Ht; cbn [app col_from last_colour].
  - destruct (N.ltb_spec i m); [eapply col_from_lt; eauto|reflexivity].
  - destruct Ha as (A & B & _ & D). destruct (N.ltb_spec i o); [|eapply IH; eauto].
    destruct (N.ltb_spec i m); [reflexivity|lia].
Qed.

Lemma col_from_all_le cur lo m l i : wfl lo m l -> m <= i + 1 -> col_from cur l i = last_colour cur l.
Proof.
  revert cur lo; induction l as [|[o k] r IH]; intros cur lo H Hm; [reflexivity|]. destruct H as (A & B & _ & D).
  cbn [col_from last_colour]. destruct (N.ltb_spec i o); [lia|]. eapply IH; eauto.
Qed.

Lemma col_from_drop_while c lo sz l i : wfl lo sz l -> col_from c (drop_while c l) i = col_from c l i.
Proof.
  revert lo; induction l as [|[o k] r IH]; intros lo H; cbn [drop_while]; [reflexivity|].
  destruct (colour_eqb_spec k c) as [->|]; [|reflexivity].
  cbn [wfl] in H. destruct H as (A & B & C & D).
  cbn [col_from]. rewrite (IH _ D). destruct (N.ltb_spec i o); [|reflexivity].
  eapply col_from_lt; [exact D|lia].
Qed.

Lemma wfl_drop_while c lo sz l : wfl lo sz l -> wfl lo sz (drop_while c l).
Proof.
  revert lo; induction l as [|[o k] r IH]; intros lo H; cbn [drop_while]; [trivial|].
  destruct (colour_eqb k c); [|exact H]. cbn [wfl] in H. destruct H as (A & B & C & D).
  apply (wfl_weaken _ _ _ _ _ (IH _ D)); lia.
Qed.

Lemma col_from_in cur l i c : col_from cur l i = c -> c = cur \/ exists o, In (o, c) l /\ o <= i.
Proof.
  revert cur; induction l as [|[o k] r IH]; intros cur H; cbn [col_from] in H; [left; congruence|].
  destruct (N.ltb_spec i o); [left; congruence|].
  destruct (IH _ H) as [->|[o' [Hin Ho']]].
  - right. exists o. split; [now left|assumption].
  - right. exists o'. split; [now right|assumption].
Qed.

Lemma col_from_at cur lo sz l o k : wfl lo sz l -> In (o, k) l -> col_from cur l o = k.
Proof.
  revert cur lo; induction l as [|[o' k'] r IH]; intros cur lo Hw Hin; [destruct Hin|].
  destruct Hw as (A & B & C & D). cbn [col_from]. destruct Hin as [E|Hin].
  - injection E as -> ->. destruct (N.ltb_spec o o); [lia|]. eapply col_from_lt; eauto. lia.
  - pose proof (wfl_in _ _ _ _ _ D Hin) as F.
    destruct (N.ltb_spec o o'); [lia|]. eapply IH; eauto.
Qed.

Lemma col_from_no_pending cur l i : no_pending l -> cur <> Pending -> col_from cur l i <> Pending.
Proof.
  revert cur; induction l as [|[o k] r IH]; intros cur Hn Hc; cbn [col_from]; [exact Hc|].
  inversion Hn; subst. destruct (i <? o); [exact Hc|]. apply IH; assumption.
Qed.

Lemma split_lt_spec s lo sz l pfx rest :
  wfl lo sz l -> split_lt s l = (pfx, rest) -> l = pfx ++ rest /\ wfl lo s pfx /\ wfl s sz rest.
Proof.
  revert lo pfx rest; induction l as [|[o k] r IH]; intros lo pfx rest H E; cbn [split_lt] in E.
  - injection E as <- <-. repeat split; constructor.
  - cbn [wfl] in H. destruct H as (A & B & C & D).
    destruct (N.ltb_spec o s).
    + destruct (split_lt s r) as [a b] eqn:Er. injection E as <- <-.
      destruct (IH _ _ _ D eq_refl) as (E1 & E2 & E3). subst r.
      split; [reflexivity|]. split; [|exact E3]. cbn [wfl]. repeat split; auto.
      intro Hk. destruct a; [reflexivity|discriminate (C Hk)].
    + injection E as <- <-. split; [reflexivity|]. split; [exact I|].
      cbn [wfl]. repeat split; auto; lia.
Qed.

Lemma all_colour_last c d l : all_colour c l = true -> l <> [] -> last_colour d l = c.
Proof.
  revert d; induction l as [|[o k] r IH]; intros d H Hne; [congruence|].
  cbn [all_colour] in H. apply andb_true_iff in H. destruct H as [Hk Hr]. destruct (colour_eqb_spec k c); [subst k|discriminate].
  cbn [last_colour]. destruct r as [|x r']; [reflexivity|]. apply IH; [exact Hr|discriminate].
Qed.

Lemma col_from_all_colour c l i : all_colour c l = true -> col_from c l i = c.
Proof.
  intros H. induction l as [|[o k] r IH]; cbn [col_from]; [reflexivity|].
  cbn [all_colour] in H. apply andb_true_iff in H. destruct H as [Hk Hr]. destruct (colour_eqb_spec k c); [subst k|discriminate].
  destruct (i <? o); [reflexivity|]. apply IH; exact Hr.
Qed.

Lemma back_merge_col c s cur l i : col_from cur (back_merge c s l) i = col_from cur (l ++ [(s, c)]) i.
Proof.
  revert cur; induction l as [|[o k] r IH]; intros cur; cbn [back_merge app]; [reflexivity|].
  destruct (colour_eqb k c && all_colour c r) eqn:E.
  - apply andb_true_iff in E. destruct E as [Hk Hr]. destruct (colour_eqb_spec k c); [subst k|discriminate].
    cbn [col_from]. destruct (i <? o); [reflexivity|].
    symmetry. apply col_from_all_colour. clear IH.
    induction r as [|[o' k'] r' IH']; cbn [app all_colour]; [destruct (colour_eqb_spec c c); [reflexivity|congruence]|].
    cbn [all_colour] in Hr. apply andb_true_iff in Hr. destruct Hr as [H1 H2]. rewrite H1. cbn. apply IH'; exact H2.
  - cbn [col_from]. destruct (i <? o); [reflexivity|]. apply IH.
Qed.

Lemma back_merge_last c s d l : last_colour d (back_merge c s l) = c.
Proof.
  revert d; induction l as [|[o k] r IH]; intros d; cbn [back_merge]; [reflexivity|].
  destruct (colour_eqb_spec k c) as [->|]; cbn [andb]; [destruct (all_colour c r)|]; cbn [last_colour]; auto.
Qed.

Lemma back_merge_wfl c s lo l :
  wfl lo s l -> no_pending l -> lo <= s -> c <> Pending ->
  wfl lo (s + 1) (back_merge c s l) /\ no_pending (back_merge c s l).
Proof.
  revert lo; induction l as [|[o k] r IH]; intros lo H Hn Hlo Hc; cbn [back_merge].
  - split; [cbn [wfl]; repeat split; auto; try lia; intro; congruence|]. constructor; [exact Hc|constructor].
  - cbn [wfl] in H. destruct H as (A & B & C & D).
    inversion Hn as [|? ? Hn1 Hn2]; subst. cbn [snd] in Hn1.
    destruct (colour_eqb k c && all_colour c r) eqn:E.
    + split; [cbn [wfl]; repeat split; auto; try lia; intro; congruence|]. constructor; [exact Hn1|constructor].
    + destruct (IH (o + 1) D Hn2 ltac:(lia) Hc) as (I1 & I2).
      split; [|constructor; assumption].
      cbn [wfl]. split; [exact A|]. split; [lia|]. split; [intro; congruence|exact I1].
Qed.

Definition WF (m : bufmap) : Prop := wfl 0 (size m) (runs m).

Definition colr (m : bufmap) (i : N) : colour := col_from Recved (runs m) i.

Lemma colour_at_colr m i : colour_at m i = if i <? size m then Some (colr m i) else None.
Proof. reflexivity. Qed.

Definition same_class (c : colour) (m m' : bufmap) : Prop :=
  forall i, i < size m -> (colr m' i = c <-> colr m i = c).

(* [m] cut at [s]: the boundaries below [s] are [pfx]; from [s] on the colours are those of [r] entered with [k] *)
Record cut (m : bufmap) (s : N) (pfx : list run) (k : colour) (r : list run) : Prop := mkcut {
  cut_pfx : wfl 0 s pfx;
  cut_tail : wfl (s + 1) (size m) r;
  cut_lo : forall i, i < s -> colr m i = col_from Recved pfx i;
  cut_hi : forall i, s <= i -> colr m i = col_from k r i }.

Lemma cut_at m s pfx k r : WF m -> runs m = pfx ++ (s, k) :: r ->
  cut m s pfx k r /\ no_pending pfx /\ s < size m /\ (k = Pending -> r = []).
Proof.
  unfold WF. intros Hwf Hr. rewrite Hr in Hwf.
  destruct (wfl_split _ _ _ _ _ _ Hwf) as (Hp & Hn & Ht). pose proof Ht as (_ & Hs & Hk & Ht').
  split; [|auto]. constructor; auto; intros i Hi; unfold colr;
    rewrite Hr, (col_from_app _ 0 s (size m)) by (eauto using wfl_from, N.le_refl);
    cbn [col_from]; destruct (N.ltb_spec i s); (reflexivity || lia).
Qed.

(* where [split_lt] leaves the range start [s]: on a boundary (s, k), or inside the run that is open at
   the end of [pfx]; ack_rcvd and may_loss branch on the two in this form *)
Lemma split_cut {A} (P : A -> Prop) {m s pfx rest} {hit : N -> colour -> list run -> A} {miss : A} :
  WF m -> split_lt s (runs m) = (pfx, rest) ->
  (forall k r, cut m s pfx k r -> no_pending pfx -> P (hit s k r)) ->
  (cut m s pfx (last_colour Recved pfx) rest -> (last_colour Recved pfx <> Pending -> no_pending pfx) -> P miss) ->
  P (match rest with (o, k) :: r => if o =? s then hit o k r else miss | [] => miss end).
Proof.
  intros Hwf Es Hhit Hmiss. destruct (split_lt_spec _ _ _ _ _ _ Hwf Es) as (Hr & Hp & Hrest).
  assert (Between : wfl (s + 1) (size m) rest -> P miss).
  { intros Ht. apply Hmiss; [|intro Hl; eapply wfl_no_pending; [exact Hp|exact Hl]].
    constructor; auto; intros i Hi; unfold colr; rewrite Hr, (col_from_app _ 0 s (size m)) by assumption;
      destruct (N.ltb_spec i s); (reflexivity || lia). }
  destruct rest as [|[o k] r]; [apply Between; exact I|].
  destruct (N.eqb_spec o s) as [->|Hne]; [|apply Between; eapply wfl_from; eauto; cbn [wfl first_off] in *; lia].
  destruct (cut_at m s pfx k r Hwf Hr) as (C & Hn & _). apply Hhit; assumption.
Qed.

(* recolouring a range: ack_rcvd, may_loss and pick all replace the colour [c] of every byte of a range
   [s, e) by [f c], having checked [ok c], and do it the same way: the boundaries below [s] are kept, the
   tail is rebuilt by a walk that absorbs the boundaries below [e] *)
Section Recolour.
Variables (f : colour -> colour) (ok : colour -> Prop).

(* the rebuilt tail [t]: entered with colour [f pre] it shows the colours of [l] entered with [pre],
   recoloured below [e] *)
Definition go_post (sz e lo : N) (pre : colour) (l t : list run) : Prop :=
  e <= sz /\ wfl lo sz t /\
  (forall i, i < sz -> col_from (f pre) t i = if i <? e then f (col_from pre l i) else col_from pre l i) /\
  (forall i, i < e -> ok (col_from pre l i)).

(* a boundary below [e] is re-emitted with its new colour, or absorbed when that is the colour in force *)
Lemma go_post_cons sz e lo pre o k r t t' :
  wfl lo sz ((o, k) :: r) -> o < e -> ok pre -> f k <> Pending ->
  go_post sz e (o + 1) k r t -> t' = (o, f k) :: t \/ (t' = t /\ f pre = f k) ->
  go_post sz e lo pre ((o, k) :: r) t'.
Proof.
  intros (A & B & _ & _) Hoe Hpre Hk (G1 & G2 & G3 & G4) Ht. split; [exact G1|]. split; [|split].
  - destruct Ht as [->|[-> _]]; [cbn [wfl]; intuition congruence|apply (wfl_weaken _ _ _ _ _ G2); lia].
  - intros i Hi. cbn [col_from]. destruct (N.ltb_spec i o) as [Hio|Hio].
    + destruct (N.ltb_spec i e); [|lia].
      destruct Ht as [->|[-> _]]; [cbn [col_from]; destruct (N.ltb_spec i o); [reflexivity|lia]|].
      apply (col_from_lt _ (o + 1) sz); [exact G2|lia].
    + rewrite <- G3 by exact Hi.
      destruct Ht as [->|[-> ->]]; [cbn [col_from]; destruct (N.ltb_spec i o); [lia|]|]; reflexivity.
  - intros i Hi. cbn [col_from]. destruct (i <? o); [exact Hpre|apply G4; exact Hi].
Qed.

Lemma go_post_stop sz e lo pre l t :
  wfl lo sz l -> e <= first_off sz l -> ok pre -> wfl lo sz t ->
  (forall i, i < sz -> col_from (f pre) t i = if i <? e then f pre else col_from pre l i) ->
  go_post sz e lo pre l t.
Proof.
  intros Hl He Hpre Ht Hc. pose proof (wfl_from _ e _ _ Hl He) as Hle.
  split; [destruct l as [|[o k] r]; cbn [first_off wfl] in *; lia|]. split; [exact Ht|]. split.
  - intros i Hi. rewrite Hc by exact Hi. destruct (N.ltb_spec i e); [|reflexivity].
    now rewrite (col_from_lt pre e sz l).
  - intros i Hi. now rewrite (col_from_lt pre e sz l).
Qed.

Lemma go_post_insert sz e lo pre l :
  wfl lo sz l -> lo <= e -> e < first_off sz l -> ok pre -> (pre = Pending -> l = []) ->
  go_post sz e lo pre l ((e, pre) :: l).
Proof.
  intros Hl Hlo He Hpre Hp. apply go_post_stop; auto; [lia|].
  cbn [wfl]. split; [exact Hlo|]. split; [destruct l as [|[o k] r]; cbn [first_off wfl] in *; lia|]. split; [exact Hp|].
  apply (wfl_from lo); [exact Hl|lia].
Qed.

Lemma go_post_same sz e lo pre l :
  wfl lo sz l -> e <= first_off sz l -> ok pre -> f pre = pre \/ e = sz -> go_post sz e lo pre l l.
Proof.
  intros Hl He Hpre Hf. apply go_post_stop; auto.
  intros i Hi. destruct (N.ltb_spec i e); [|destruct Hf as [->|]; [reflexivity|lia]].
  apply (col_from_lt _ e sz); [exact (wfl_from _ e _ _ Hl He)|assumption].
Qed.

Lemma go_post_merge sz e lo pre l :
  wfl lo sz l -> e = first_off sz l -> ok pre -> go_post sz e lo pre l (drop_while (f pre) l).
Proof.
  intros Hl He Hpre. apply go_post_stop; auto; [lia|apply wfl_drop_while; exact Hl|].
  intros i Hi. rewrite (col_from_drop_while _ lo sz) by exact Hl.
  destruct l as [|[o k] r]; cbn [first_off] in He; subst e; cbn [col_from].
  - destruct (N.ltb_spec i sz); [reflexivity|lia].
  - destruct (i <? o); reflexivity.
Qed.

Definition walk_fails (sz e : N) (l : list run) : Prop := sz < e \/ exists o, In (o, Pending) l /\ o < e.

Lemma walk_fails_cons sz e x r : walk_fails sz e r -> walk_fails sz e (x :: r).
Proof. intros [H|(o & Hin & Ho)]; [left; exact H|right; exists o; split; [right|]; assumption]. Qed.

Definition walk_post (sz e lo : N) (pre : colour) (l : list run) (res : option (list run)) : Prop :=
  match res with
  | Some t => go_post sz e lo pre l t
  | None => walk_fails sz e l
  end.

(* a step of a walk at a boundary below [e]; [emit]: the boundary is re-emitted in its new colour, else absorbed *)
Lemma walk_post_cons (emit : bool) sz e lo pre o k r res :
  wfl lo sz ((o, k) :: r) -> o < e -> ok pre -> f k <> Pending -> (emit = false -> f pre = f k) ->
  walk_post sz e (o + 1) k r res ->
  walk_post sz e lo pre ((o, k) :: r) (if emit then option_map (cons (o, f k)) res else res).
Proof.
  intros Hw Hoe Hpre Hk Hf R. destruct res as [t|]; [|destruct emit; apply walk_fails_cons; exact R].
  destruct emit; cbn [option_map walk_post]; apply (go_post_cons sz e lo pre o k r t); auto.
Qed.

Record post (m : bufmap) (s e : N) (m' : bufmap) : Prop := mkpost {
  post_wf : WF m';
  post_size : size m' = size m;
  post_end : e <= size m;
  post_ok : forall i, s <= i < e -> ok (colr m i);
  post_col : forall i, i < size m -> colr m' i = if (s <=? i) && (i <? e) then f (colr m i) else colr m i }.

Lemma post_keeps m s e m' c :
  post m s e m' -> (forall x, ok x -> (f x = c <-> x = c)) -> same_class c m m'.
Proof.
  intros P Hf i Hi. rewrite (post_col _ _ _ _ P) by exact Hi.
  destruct (range_spec s e i) as [Hr|_]; [apply Hf, (post_ok _ _ _ _ P), Hr|reflexivity].
Qed.

(* what is kept in front of the rebuilt tail, [c] being the new colour of byte [s] *)
Inductive keeps (s : N) (c : colour) (pfx : list run) : list run -> Prop :=
| keep_same : last_colour Recved pfx = c -> keeps s c pfx pfx
| keep_snoc : keeps s c pfx (pfx ++ [(s, c)])
| keep_merge : keeps s c pfx (back_merge c s pfx).

Lemma glue m s e pfx k r t kept :
  cut m s pfx k r -> no_pending pfx -> s < e -> go_post (size m) e (s + 1) k r t -> f k <> Pending ->
  keeps s (f k) pfx kept -> post m s e (mkmap (kept ++ t) (size m)).
Proof.
  intros C Hn Hse (G1 & G2 & G3 & G4) Hk K. pose proof (cut_pfx _ _ _ _ _ C) as Hp.
  assert (F : wfl 0 (s + 1) kept /\ no_pending kept /\ last_colour Recved kept = f k /\
              forall i, i < s -> col_from Recved kept i = col_from Recved pfx i).
  { destruct (wfl_snoc (f k) s 0 pfx) as (S1 & S2); auto; [lia|].
    assert (Hsnoc : forall i, i < s -> col_from Recved (pfx ++ [(s, f k)]) i = col_from Recved pfx i).
    { intros i Hi. rewrite (col_from_app _ 0 s (s + 1)) by (cbn [wfl]; intuition lia).
      destruct (N.ltb_spec i s); [reflexivity|lia]. }
    destruct K as [Hl| |].
    - repeat split; auto. apply (wfl_weaken _ _ _ _ _ Hp); lia.
    - repeat split; auto. apply last_colour_app.
    - destruct (back_merge_wfl (f k) s 0 pfx) as (B1 & B2); auto; try lia.
      repeat split; auto; [apply back_merge_last|]. intros i Hi. rewrite back_merge_col. auto. }
  destruct F as (Hkept & Hn' & Hl & Hlow). constructor; [|reflexivity|exact G1| |].
  - apply wfl_app with (m := s + 1); auto. cbn [size]. lia.
  - intros i Hi. rewrite (cut_hi _ _ _ _ _ C i) by lia. apply G4. lia.
  - intros i Hi. unfold colr at 1. cbn [runs]. rewrite (col_from_app _ 0 (s + 1) (size m)) by assumption.
    destruct (N.ltb_spec i (s + 1)) as [Hi1|Hi1]; destruct (N.leb_spec s i) as [Hsi|Hsi]; cbn [andb]; try lia.
    + rewrite (col_from_all_le _ 0 (s + 1)) by (auto; lia). rewrite (cut_hi _ _ _ _ _ C i Hsi).
      rewrite (col_from_lt k (s + 1) (size m)) by (apply C || lia). destruct (N.ltb_spec i e); [exact Hl|lia].
    + rewrite (cut_lo _ _ _ _ _ C i Hsi). apply Hlow; exact Hsi.
    + rewrite Hl, (cut_hi _ _ _ _ _ C i Hsi). apply G3; exact Hi.
Qed.

(* the common form of ack_rcvd and may_loss: cut at [s]; a Pending byte at [s] fails; else keep the prefix
   and rebuild the tail by the walk [go] *)
Definition cut_form (m : bufmap) (s : N) (go : colour -> list run -> option (list run)) (res : option bufmap) : Prop :=
  exists pfx k r kept, cut m s pfx k r /\ (k <> Pending -> no_pending pfx /\ keeps s (f k) pfx kept) /\
    res = match k with
          | Pending => None
          | _ => option_map (fun t => mkmap (kept ++ t) (size m)) (go k r)
          end.

Definition char_post (m : bufmap) (s e : N) (res : option bufmap) : Prop :=
  match res with
  | Some m' => post m s e m'
  | None => size m < e \/ exists i, s <= i < e /\ colr m i = Pending
  end.

Lemma cut_form_char m s e go res :
  cut_form m s go res -> s < e ->
  (forall k r, k <> Pending -> wfl (s + 1) (size m) r ->
     walk_post (size m) e (s + 1) k r (go k r) /\ f k <> Pending) ->
  char_post m s e res.
Proof.
  intros (pfx & k & r & kept & C & HK & ->) Hse Hgo.
  assert (Hs : colr m s = k).
  { rewrite (cut_hi _ _ _ _ _ C) by lia. apply (col_from_lt k (s + 1) (size m)); [apply C|lia]. }
  destruct (colour_eqb_spec k Pending) as [->|Hk]. { right. exists s. split; [lia|exact Hs]. }
  destruct (HK Hk) as [Hn K]. destruct (Hgo k r Hk (cut_tail _ _ _ _ _ C)) as [G Hf].
  assert (R : char_post m s e (option_map (fun t => mkmap (kept ++ t) (size m)) (go k r))).
  { destruct (go k r) as [t|]; cbn [option_map char_post walk_post runs size] in *.
    - eapply glue; eauto.
    - (* the walk failed at a Pending boundary of the tail: that byte lies in the range *)
      destruct G as [|(o & Hin & Ho)]; [left; assumption|right]. exists o.
      pose proof (wfl_in _ _ _ _ _ (cut_tail _ _ _ _ _ C) Hin) as F.
      split; [lia|]. rewrite (cut_hi _ _ _ _ _ C) by lia. eapply col_from_at; eauto. apply C. }
  destruct k; [congruence|exact R..].
Qed.

End Recolour.

Definition not_pending (c : colour) : Prop := c <> Pending.

Lemma ack_go_spec sz e : forall l lo pre,
  wfl lo sz l -> lo <= e -> pre <> Pending ->
  walk_post (fun _ => Recved) not_pending sz e lo pre l (ack_go sz e pre l).
Proof.
  induction l as [|[o k] r IH]; intros lo pre Hw Hlo Hp; cbn [ack_go].
  - destruct (N.ltb_spec sz e); [left; assumption|]. cbn [walk_post].
    destruct (N.ltb_spec e sz); destruct (colour_eqb_spec pre Recved); cbn [andb negb];
      try (apply go_post_same; auto; cbn [first_off]; lia).
    apply go_post_insert; auto.
  - destruct (N.ltb_spec o e) as [Hoe|Hoe].
    + (* the boundary is absorbed: everything below [e] becomes Recved *)
      destruct k; [right; exists o; split; [left; reflexivity|exact Hoe]|..];
        (apply (walk_post_cons _ _ false _ _ _ _ _ _ _ _ Hw Hoe Hp); [discriminate|reflexivity|]);
        (apply IH; [apply Hw|lia|discriminate]).
    + destruct (N.eqb_spec o e) as [->|Hne]; cbn [walk_post].
      * apply go_post_merge; auto.
      * destruct (colour_eqb_spec pre Recved).
        -- apply go_post_same; auto.
        -- apply go_post_insert; auto; [cbn [first_off]; lia|contradiction].
Qed.

Lemma ack_rcvd_cut_form m s e :
  WF m -> cut_form (fun _ => Recved) m s (ack_go (size m) e) (ack_rcvd m s e).
Proof.
  intros Hwf. unfold ack_rcvd. destruct (split_lt s (runs m)) as [pfx rest] eqn:Es.
  apply (split_cut (fun res => cut_form _ m s _ (option_map _ res)) Hwf Es).
  - intros k r C Hn. exists pfx, k, r, (back_merge Recved s pfx).
    split; [exact C|]. split; [intros _; split; [exact Hn|constructor]|].
    destruct k; try reflexivity; apply option_map_map.
  - intros C Hn. exists pfx, (last_colour Recved pfx), rest,
      (match last_colour Recved pfx with Recved => pfx | _ => pfx ++ [(s, Recved)] end).
    split; [exact C|]. split.
    + intros Hk. split; [auto|]. destruct (last_colour Recved pfx) eqn:El; constructor. exact El.
    + unfold ack_err. destruct pfx as [|p0 pfx0] eqn:Epfx; [reflexivity|]. rewrite <- Epfx.
      destruct (last_colour Recved pfx); try reflexivity; apply option_map_map.
Qed.

Lemma ack_rcvd_char m s e :
  WF m -> s < e -> char_post (fun _ => Recved) not_pending m s e (ack_rcvd m s e).
Proof.
  intros Hwf Hse. eapply cut_form_char; eauto using ack_rcvd_cut_form.
  intros k r Hk Hw. split; [apply ack_go_spec; auto; lia|discriminate].
Qed.

Definition lossf (c : colour) : colour := match c with Flighting => Lost | _ => c end.

Lemma lossf_pending c : lossf c = Pending <-> c = Pending.
Proof. destruct c; cbn; split; intro; congruence. Qed.

Lemma lossf_recved c : lossf c = Recved <-> c = Recved.
Proof. destruct c; cbn; split; intro; congruence. Qed.

Lemma lossf_lost pre : lossf pre = Lost -> pre <> Flighting -> lossf pre = pre.
Proof. destruct pre; cbn; congruence. Qed.

Lemma loss_walks_spec sz e : forall l,
  (forall lo pre, wfl lo sz l -> lo <= e -> lossf pre = Lost ->
      walk_post lossf not_pending sz e lo pre l (loss_go sz e pre l)) /\
  (forall lo, wfl lo sz l -> lo <= e -> walk_post lossf not_pending sz e lo Recved l (lost_from sz e l)).
Proof.
  induction l as [|[o k] r [IH1 IH2]]; split.
  - intros lo pre Hw Hlo Hp. cbn [loss_go].
    assert (Hpn : pre <> Pending) by (intros ->; discriminate).
    destruct (N.ltb_spec sz e); [left; assumption|]. cbn [walk_post].
    destruct (N.ltb_spec e sz); destruct (colour_eqb_spec pre Flighting) as [->|Hf]; cbn [andb];
      try (apply go_post_same; auto using lossf_lost; cbn [first_off]; lia).
    apply go_post_insert; auto.
  - intros lo Hw Hlo. cbn [lost_from].
    destruct (N.ltb_spec sz e); [left; assumption|]. apply go_post_same; auto. discriminate.
  - intros lo pre Hw Hlo Hp. cbn [loss_go].
    assert (Hpn : not_pending pre) by (intros ->; discriminate).
    pose proof Hw as (A & B & _ & D).
    destruct (N.ltb_spec o e) as [Hoe|Hoe].
    + (* in a stretch that becomes Lost a Flighting or Lost boundary is absorbed, a Recved one is re-emitted *)
      destruct k; [right; exists o; split; [left; reflexivity|exact Hoe]|..].
      * apply (walk_post_cons lossf _ false _ _ _ _ _ _ _ _ Hw Hoe Hpn); [discriminate|auto|]. apply IH1; auto. lia.
      * apply (walk_post_cons lossf _ false _ _ _ _ _ _ _ _ Hw Hoe Hpn); [discriminate|auto|]. apply IH1; auto. lia.
      * apply (walk_post_cons lossf _ true _ _ _ _ _ _ _ _ Hw Hoe Hpn); [discriminate..|]. apply IH2; auto. lia.
    + destruct (N.eqb_spec o e) as [->|Hne]; cbn [walk_post].
      * rewrite <- Hp. apply go_post_merge; auto.
      * destruct (colour_eqb_spec pre Flighting) as [->|Hf].
        -- apply go_post_insert; auto; [cbn [first_off]; lia|discriminate].
        -- apply go_post_same; auto using lossf_lost.
  - intros lo Hw Hlo. cbn [lost_from].
    pose proof Hw as (A & B & _ & D).
    destruct (N.ltb_spec o e) as [Hoe|Hoe].
    + (* in a Recved stretch every boundary is re-emitted, a Flighting one as Lost *)
      destruct k; [right; exists o; split; [left; reflexivity|exact Hoe]|..];
        (apply (walk_post_cons lossf _ true _ _ _ _ _ _ _ _ Hw Hoe); [discriminate..|]); [apply IH1|apply IH1|apply IH2]; auto; lia.
    + destruct (N.eqb_spec o e) as [->|Hne]; cbn [walk_post].
      * (* a Lost run at e swallows the Lost runs that follow it *)
        destruct k; try (apply go_post_same; auto; discriminate).
        apply go_post_stop; auto; try discriminate.
        -- cbn [wfl]. repeat split; auto; [discriminate|]. apply wfl_drop_while. exact D.
        -- intros i Hi. cbn [col_from]. rewrite (col_from_drop_while _ _ _ _ _ D).
           destruct (i <? e); reflexivity.
      * apply go_post_same; auto; discriminate.
Qed.

(* the walk that rebuilds the tail when the colour in force is [k] *)
Definition loss_tail (sz e : N) (k : colour) (r : list run) : option (list run) :=
  match k with Recved => lost_from sz e r | _ => loss_go sz e k r end.

Lemma loss_tail_spec sz e l lo pre :
  wfl lo sz l -> lo <= e -> pre <> Pending -> walk_post lossf not_pending sz e lo pre l (loss_tail sz e pre l).
Proof.
  intros Hw Hlo Hp. destruct (loss_walks_spec sz e l) as [G1 G2].
  destruct pre; [congruence|apply G1|apply G1|apply G2]; auto.
Qed.

Lemma may_loss_cut_form m s e :
  WF m -> cut_form lossf m s (loss_tail (size m) e) (may_loss m s e).
Proof.
  intros Hwf. unfold may_loss. destruct (split_lt s (runs m)) as [pfx rest] eqn:Es.
  apply (split_cut (fun res => cut_form _ m s _ (option_map _ res)) Hwf Es).
  - intros k r C Hn.
    exists pfx, k, r, (match k with Flighting => back_merge Lost s pfx | _ => pfx ++ [(s, lossf k)] end).
    split; [exact C|]. split; [intros _; split; [exact Hn|destruct k; constructor]|].
    destruct k; try reflexivity; rewrite option_map_map; try reflexivity.
    unfold loss_tail. destruct (lost_from (size m) e r); [|reflexivity].
    cbn [option_map]. now rewrite <- app_assoc.
  - intros C Hn. exists pfx, (last_colour Recved pfx), rest,
      (match last_colour Recved pfx with Flighting => pfx ++ [(s, Lost)] | _ => pfx end).
    split; [exact C|]. split.
    + intros Hk. split; [auto|]. destruct (last_colour Recved pfx) eqn:El; constructor; exact El.
    + unfold loss_err. destruct pfx as [|p0 pfx0] eqn:Epfx; [reflexivity|]. rewrite <- Epfx.
      destruct (last_colour Recved pfx); try reflexivity; apply option_map_map.
Qed.

Lemma may_loss_char m s e :
  WF m -> s < e -> char_post lossf not_pending m s e (may_loss m s e).
Proof.
  intros Hwf Hse. eapply cut_form_char; eauto using may_loss_cut_form.
  intros k r Hk Hw. split; [apply loss_tail_spec; auto; lia|now rewrite lossf_pending].
Qed.

Definition skipped (flow win : N) (x : run) : Prop :=
  win <= fst x \/ snd x = Flighting \/ snd x = Recved \/ (snd x = Pending /\ flow = 0).

Definition scan_post (flow win : N) (l : list run) (res : option (list run * run * list run) * (bool * bool)) : Prop :=
  match res with
  | (Some (pre, (start, c), rest), _) =>
      l = pre ++ (start, c) :: rest /\ start < win /\ (c = Lost \/ (c = Pending /\ flow <> 0)) /\
      Forall (skipped flow win) pre
  | (None, _) => Forall (skipped flow win) l
  end.

Lemma pick_scan_spec flow win : forall l w f, scan_post flow win l (pick_scan flow win l w f).
Proof.
  induction l as [|[o k] r IH]; intros w f; cbn [pick_scan]; [constructor|].
  assert (Cont : forall w' f', skipped flow win (o, k) ->
     scan_post flow win ((o, k) :: r)
       (match pick_scan flow win r w' f' with
        | (Some (p, x, t), s) => (Some ((o, k) :: p, x, t), s)
        | (None, s) => (None, s)
        end)).
  { intros w' f' Hs. specialize (IH w' f'). destruct (pick_scan flow win r w' f') as [[[[p [st0 c]] t]|] sg]; cbn [scan_post] in *.
    - destruct IH as (I1 & I2 & I3 & I4). split; [cbn [app]; now rewrite I1|]. split; [exact I2|]. split; [exact I3|].
      constructor; assumption.
    - constructor; assumption. }
  destruct (N.leb_spec win o).
  - apply Cont. left. exact H.
  - destruct k.
    + destruct (N.eqb_spec flow 0).
      * apply Cont. right; right; right. split; [reflexivity|assumption].
      * split; [reflexivity|]. split; [exact H|]. split; [right; split; [reflexivity|assumption]|constructor].
    + apply Cont. right; left; reflexivity.
    + split; [reflexivity|]. split; [exact H|]. split; [left; reflexivity|constructor].
    + apply Cont. right; right; left; reflexivity.
Qed.

Lemma skipped_col flow win lo l i :
  Forall (skipped flow win) l -> wfl lo win l ->
  col_from Recved l i = Flighting \/ col_from Recved l i = Recved \/ (col_from Recved l i = Pending /\ flow = 0).
Proof.
  intros Hs Ho. destruct (col_from_in Recved l i _ eq_refl) as [Hq|[o [Hin _]]]; [auto|].
  pose proof (wfl_in _ _ _ _ _ Ho Hin) as Hlt. rewrite Forall_forall in Hs. specialize (Hs _ Hin).
  destruct Hs as [Hk|[Hk|[Hk|Hk]]]; cbn [fst snd] in Hk; [lia|auto..].
Qed.

Record pick_post (m : bufmap) (flow avail : N) (m' : bufmap) (start fin : N) (fresh : bool) : Prop := mkpick {
  pick_recol : post (fun _ => Flighting) (fun c => c = if fresh then Pending else Lost) m start fin m';
  pick_lt : start < fin;
  pick_avail : fin - start <= avail;
  pick_flow : fresh = true -> flow <> 0 /\ fin - start <= flow;
  pick_below : forall i, i < start -> colr m i = Flighting \/ colr m i = Recved }.

Lemma pick_spec m pred flow win m' start fin fresh :
  WF m -> size m <= win -> (forall o a, pred o = Some a -> 1 <= a) ->
  pick m pred flow win = PickOk m' start fin fresh ->
  exists avail, pred start = Some avail /\ pick_post m flow avail m' start fin fresh.
Proof.
  intros Hwf Hwin Hpred E. unfold pick in E.
  pose proof (pick_scan_spec flow win (runs m) true false) as Hs.
  destruct (pick_scan flow win (runs m) true false) as [[[[pre [st0 c]] rest]|] [w f]]; [|discriminate].
  destruct Hs as (Hr & Hst & Hc & Hskip).
  destruct (pred st0) as [avail|] eqn:Ep; [|discriminate].
  pose proof (Hpred _ _ Ep) as Hav.
  set (allowance := match c with Lost => avail | _ => N.min avail flow end) in *.
  destruct (two64 <=? st0 + allowance); [discriminate|].
  assert (Hal : 1 <= allowance /\ allowance <= avail /\ (c = Pending -> allowance <= flow)).
  { unfold allowance. destruct Hc as [->|[-> Hf]].
    - split; [exact Hav|]. split; [reflexivity|discriminate].
    - split; [apply N.min_glb; lia|]. split; [apply N.le_min_l|intros _; apply N.le_min_r]. }
  destruct Hal as (Hal1 & Hal2 & Hal3).
  destruct (cut_at m st0 pre c rest Hwf Hr) as (C & Hn & Hsz & Hpend). pose proof C as [Hp Ht Hlo _].
  change (match rest with (o, _) :: _ => o | [] => size m end) with (first_off (size m) rest) in E.
  destruct (first_off_bounds _ _ _ Ht ltac:(lia)) as [N1 N2].
  rewrite N.min_l in E by lia.
  (* the tail: the run is split at st0 + allowance, or taken whole and merged with the Flighting runs behind it *)
  assert (G : exists t, m' = mkmap (back_merge Flighting st0 pre ++ t) (size m) /\ start = st0 /\ st0 < fin /\
            fin - st0 <= allowance /\ fresh = is_pending c /\
            go_post (fun _ => Flighting) (fun x => x = c) (size m) fin (st0 + 1) c rest t).
  { destruct (N.ltb_spec (st0 + allowance) (first_off (size m) rest)); injection E as <- <- <- <-;
      eexists; (split; [reflexivity|]); (split; [reflexivity|]); (split; [lia|]); (split; [lia|]);
      (split; [reflexivity|]).
    - apply go_post_insert; auto; lia.
    - apply go_post_merge; auto; lia. }
  destruct G as (t & -> & -> & Hfin & Hlen & -> & G). exists avail. split; [exact Ep|].
  pose proof (glue _ _ m st0 fin pre c rest t _ C Hn Hfin G ltac:(discriminate) (keep_merge _ _ _)) as P.
  constructor; [|exact Hfin|lia| |].
  - destruct Hc as [->|[-> _]]; exact P.
  - destruct Hc as [->|[-> Hf]]; [intro Hq; discriminate Hq|]. intros _. specialize (Hal3 eq_refl). split; [exact Hf|lia].
  - intros i Hi. rewrite Hlo by exact Hi.
    destruct (skipped_col flow win 0 pre i Hskip) as [Hq|[Hq|[Hq _]]]; [apply (wfl_weaken _ _ _ _ _ Hp); lia|now left|now right|].
    exfalso. exact (col_from_no_pending Recved pre i Hn ltac:(discriminate) Hq).
Qed.

Lemma extend_to_spec m pos m' :
  WF m -> extend_to m pos = Some m' ->
  pos < two62 /\ size m <= pos /\ size m' = pos /\ WF m' /\
  (forall i, i < size m -> colr m' i = colr m i) /\
  (forall i, size m <= i < pos -> colr m' i = Pending).
Proof.
  intros Hwf E. unfold extend_to in E.
  destruct ((two62 <=? pos) || (pos <? size m)) eqn:G; [discriminate|].
  apply orb_false_iff in G. destruct G as [G2 G]. apply N.leb_gt in G2. apply N.ltb_ge in G. split; [exact G2|].
  destruct (N.ltb_spec (size m) pos) as [Hlt|Hge].
  - assert (Cases : (last_colour Recved (runs m) = Pending /\ m' = mkmap (runs m) pos) \/
                    (last_colour Recved (runs m) <> Pending /\ m' = mkmap (runs m ++ [(size m, Pending)]) pos)).
    { destruct (colour_eqb_spec (last_colour Recved (runs m)) Pending) as [El|El]; [left|right]; split; try exact El.
      - (* the last run is Pending, so there is one *)
        rewrite El in E. destruct (runs m); [discriminate El|]. now injection E as <-.
      - destruct (last_colour Recved (runs m)); [congruence|..]; now injection E as <-. }
    destruct Cases as [(Hl & ->)|(Hl & ->)]; unfold WF, colr; cbn [size runs];
      (split; [lia|]); (split; [reflexivity|]).
    + split; [apply (wfl_weaken _ _ _ _ _ Hwf); lia|]. split; [reflexivity|].
      intros i Hi. rewrite (col_from_all_le _ 0 (size m)) by (exact Hwf || lia). exact Hl.
    + assert (Hp : wfl (size m) pos [(size m, Pending)]) by (cbn [wfl]; repeat split; auto; lia).
      split; [apply wfl_app with (m := size m); eauto using wfl_no_pending; lia|].
      split; intros i Hi; rewrite (col_from_app _ 0 (size m) pos) by assumption; cbn [col_from];
        destruct (N.ltb_spec i (size m)); (reflexivity || lia).
  - injection E as <-. assert (pos = size m) by lia. subst pos.
    split; [lia|]. split; [reflexivity|]. split; [exact Hwf|]. split; [reflexivity|intros; lia].
Qed.

Lemma drop_while_hd c l o k r : drop_while c l = (o, k) :: r -> k <> c.
Proof.
  induction l as [|[o' k'] r' IH]; cbn [drop_while]; [discriminate|].
  destruct (colour_eqb_spec k' c); [exact IH|]. intro H. injection H as -> -> ->. assumption.
Qed.

Definition lead (m : bufmap) (p : N) : Prop :=
  p <= size m /\ (forall i, i < p -> colr m i = Recved) /\ (p < size m -> colr m p <> Recved).

Lemma shift_spec m m2 pos :
  WF m -> shift m = (m2, pos) ->
  size m2 = size m /\ WF m2 /\ (forall i, colr m2 i = colr m i) /\ lead m2 pos.
Proof.
  intros Hwf E. unfold shift in E. injection E as <- <-.
  pose proof (wfl_drop_while Recved _ _ _ Hwf) as Hw2.
  split; [reflexivity|]. split; [exact Hw2|]. split; [intro i; exact (col_from_drop_while _ _ _ _ i Hwf)|].
  unfold lead, colr. cbn [size runs].
  destruct (drop_while Recved (runs m)) as [|[o k] r] eqn:Ed.
  - split; [lia|]. split; [reflexivity|lia].
  - destruct Hw2 as (A & B & C & D). split; [lia|]. split; cbn [col_from].
    + intros i Hi. destruct (N.ltb_spec i o); [reflexivity|lia].
    + intros _. destruct (N.ltb_spec o o); [lia|].
      rewrite (col_from_lt k (o + 1) (size m) r o D ltac:(lia)). eapply drop_while_hd; eauto.
Qed.

Definition resend_run (x : run) : run := match x with (o, Flighting) => (o, Lost) | _ => x end.

Lemma resend_run_eq o k : resend_run (o, k) = (o, lossf k).
Proof. destruct k; reflexivity. Qed.

Lemma resend_spec m :
  WF m -> size (resend_flighting m) = size m /\ WF (resend_flighting m) /\
  (forall i, colr (resend_flighting m) i = lossf (colr m i)).
Proof.
  unfold WF, colr, resend_flighting. cbn [size runs]. fold resend_run.
  intros Hwf. split; [reflexivity|]. split.
  - revert Hwf. generalize 0. induction (runs m) as [|[o k] r IH]; intros lo H; [exact I|].
    cbn [map]. rewrite resend_run_eq. destruct H as (A & B & C & D).
    repeat split; auto. intro Hk. rewrite C; [reflexivity|]. destruct k; (discriminate || reflexivity).
  - clear Hwf. intro i. change Recved with (lossf Recved) at 1. generalize Recved.
    induction (runs m) as [|[o k] r IH]; intro cur; [reflexivity|].
    cbn [map]. rewrite resend_run_eq. cbn [col_from]. destruct (i <? o); [reflexivity|apply IH].
Qed.

Definition is_sent (m : bufmap) (x : N) : Prop :=
  x <= size m /\ (forall i, x <= i < size m -> colr m i = Pending) /\ (forall i, i < x -> colr m i <> Pending).

Lemma is_sent_unique m x y : is_sent m x -> is_sent m y -> x = y.
Proof.
  intros (X1 & X2 & X3) (Y1 & Y2 & Y3).
  destruct (N.lt_trichotomy x y) as [H|[H|H]]; [|exact H|].
  - exfalso. apply (Y3 x H). apply X2. lia.
  - exfalso. apply (X3 y H). apply Y2. lia.
Qed.

Lemma last_run_snoc a x : last_run (a ++ [x]) = Some x.
Proof.
  induction a as [|y a IH]; [reflexivity|]. cbn [app last_run].
  destruct (a ++ [x]) eqn:E; [destruct a; discriminate|]. exact IH.
Qed.

Lemma sent_of_spec m : WF m -> is_sent m (sent_of m).
Proof.
  intros Hwf. unfold sent_of.
  destruct (runs m) as [|[o k] l _] eqn:Hr using rev_ind.
  - unfold is_sent, colr. rewrite Hr. cbn. split; [lia|]. split; [intros; lia|]. intros; discriminate.
  - rewrite last_run_snoc. destruct (cut_at m o l k [] Hwf Hr) as ([_ _ Hlo Hhi] & Hn & Ho & _).
    assert (Low : forall i, i < o -> colr m i <> Pending).
    { intros i Hi. rewrite Hlo by exact Hi. apply col_from_no_pending; [exact Hn|discriminate]. }
    assert (All : k <> Pending -> is_sent m (size m)).
    { intros Hk. split; [lia|]. split; [intros; lia|]. intros i _.
      destruct (N.lt_ge_cases i o); [auto|]. rewrite Hhi by assumption. exact Hk. }
    destruct k; [|apply All; discriminate..].
    split; [lia|]. split; [|exact Low]. intros i Hi. apply Hhi. lia.
Qed.

Lemma sent_same m m' :
  WF m -> WF m' -> size m <= size m' -> same_class Pending m m' ->
  (forall i, size m <= i < size m' -> colr m' i = Pending) ->
  sent_of m' = sent_of m.
Proof.
  intros H H' Hs Hc Hn. apply (is_sent_unique m'); [apply sent_of_spec; exact H'|].
  destruct (sent_of_spec m H) as (S1 & S2 & S3). split; [lia|]. split.
  - intros i Hi. destruct (N.lt_ge_cases i (size m)); [|apply Hn; lia]. apply Hc; [assumption|]. apply S2. lia.
  - intros i Hi Hp. apply (S3 i Hi). apply Hc; [lia|exact Hp].
Qed.

Lemma lead_keeps m m' p :
  lead m p -> size m <= size m' -> same_class Recved m m' ->
  (forall i, size m <= i < size m' -> colr m' i <> Recved) -> lead m' p.
Proof.
  intros (L1 & L2 & L3) Hs Hr Hn. split; [lia|]. split.
  - intros i Hi. apply Hr; [lia|]. apply L2; exact Hi.
  - intros Hp Hq. destruct (N.lt_ge_cases p (size m)) as [Hlt|Hge]; [|apply (Hn p); [lia|exact Hq]].
    apply (L3 Hlt). apply Hr; assumption.
Qed.

Lemma lead_same m m' p : lead m p -> size m' = size m -> same_class Recved m m' -> lead m' p.
Proof. intros L Hs Hc. apply (lead_keeps _ _ _ L); [lia|exact Hc|intros; lia]. Qed.

Record Inv (b : sndbuf) : Prop := mkInv {
  inv_wf : WF (st b);
  inv_size : size (st b) = N.min (written b) (max_data b);
  inv_small : size (st b) < two62 }.

(* [base] is the first byte that is not acknowledged: [lead (st b) (base b)] *)
Definition Tight (b : sndbuf) : Prop :=
  base b <= size (st b) /\ (forall i, i < base b -> colr (st b) i = Recved) /\
  (base b < size (st b) -> colr (st b) (base b) <> Recved).

Lemma Inv_init cap : Inv (with_capacity cap) /\ Tight (with_capacity cap).
Proof.
  split.
  - constructor; unfold with_capacity, written, WF, empty_map; cbn [st size runs base retained max_data wfl];
      [exact I|lia|reflexivity].
  - unfold Tight, with_capacity, empty_map; cbn [st size runs base]. split; [lia|]. split; intros; lia.
Qed.

(* what every operation but forget_sent_state does to the buffer *)
Definition stepped (b b' : sndbuf) (wr snt : N) : Prop :=
  Inv b' /\ written b' = wr /\ sent b' = snt /\ (Tight b -> Tight b').

Lemma stepped_refl b : Inv b -> stepped b b (written b) (sent b).
Proof. intro HI. split; [exact HI|auto]. Qed.

(* extend_to inside write / extend *)
Lemma grow_facts b m' pos ret' max' :
  Inv b -> extend_to (st b) pos = Some m' -> pos = N.min (base b + ret') max' ->
  stepped b (mksb (base b) ret' max' m') (base b + ret') (sent b).
Proof.
  intros [Hwf Hsz Hsm] E Hpos.
  destruct (extend_to_spec _ _ _ Hwf E) as (X0 & X1 & X2 & X3 & X4 & X5).
  assert (Hsame : forall c, same_class c (st b) m') by (intros c i Hi; now rewrite X4).
  split; [constructor; unfold written; cbn [st base retained max_data]; [exact X3|lia|lia]|].
  split; [reflexivity|]. split.
  - unfold sent; cbn [st]. apply sent_same; auto; [lia|]. intros i Hi. apply X5. lia.
  - intro T. change (lead m' (base b)). apply (lead_keeps _ _ _ T); auto; [lia|]. intros i Hi. rewrite X5 by lia. discriminate.
Qed.

Lemma step_write b len b' :
  Inv b -> write b len = Some b' -> stepped b b' (written b + len) (sent b) /\ max_data b' = max_data b.
Proof.
  intros HI E. unfold write in E. destruct (N.eqb_spec len 0) as [->|Hne].
  - injection E as <-. rewrite N.add_0_r. split; [exact (stepped_refl b HI)|reflexivity].
  - destruct (extend_to (st b) (N.min (written b + len) (max_data b))) as [m'|] eqn:Ee; [|discriminate].
    injection E as <-. split; [|reflexivity]. unfold written. rewrite <- N.add_assoc.
    apply (grow_facts b m' _ _ _ HI Ee). now rewrite N.add_assoc.
Qed.

Lemma step_extend b mx b' :
  Inv b -> extend b mx = Some b' ->
  stepped b b' (written b) (sent b) /\ base b' = base b /\ retained b' = retained b /\ max_data b' = mx.
Proof.
  intros HI E. unfold extend in E. destruct (mx <? max_data b); [discriminate|].
  destruct (extend_to (st b) (N.min (written b) mx)) as [m'|] eqn:Ee; [|discriminate]. injection E as <-.
  split; [exact (grow_facts b m' _ _ _ HI Ee eq_refl)|auto].
Qed.

Lemma recolour_facts b m' B R :
  Inv b -> WF m' -> size m' = size (st b) -> B + R = written b -> same_class Pending (st b) m' ->
  (Tight b -> lead m' B) -> stepped b (mksb B R (max_data b) m') (written b) (sent b).
Proof.
  intros [Hwf Hsz Hsm] Hwf' Hs HBR Hc HT.
  split; [|split; [exact HBR|split; [|exact HT]]].
  - constructor; unfold written; cbn [st base retained max_data]; rewrite ?Hs, ?HBR; assumption.
  - unfold sent; cbn [st]. apply sent_same; auto; [lia|]. intros; lia.
Qed.

Lemma data_of_held c b s e : base b <= s -> e <= written b -> data_of c b s e = slice c s (e - s).
Proof.
  unfold data_of, written. intros Hs He.
  replace (N.max s (base b)) with s by lia. replace (N.min e (base b + retained b)) with e by lia. reflexivity.
Qed.

Lemma pick_up_facts c b pred flow b' s e fr d :
  Inv b -> (forall o a, pred o = Some a -> 1 <= a) ->
  pick_up c b pred flow = UpOk b' s e fr d ->
  exists avail, pred s = Some avail /\
    pick_post (st b) flow avail (st b') s e fr /\
    base b' = base b /\ retained b' = retained b /\ max_data b' = max_data b /\ d = data_of c b s e.
Proof.
  intros [Hwf Hsz Hsm] Hp E. unfold pick_up in E.
  destruct (pick (st b) pred flow (max_data b)) as [m' s0 e0 f0| |] eqn:Ep; try discriminate.
  injection E as <- <- <- <- <-.
  assert (Hle : size (st b) <= max_data b) by lia.
  destruct (pick_spec _ _ _ _ _ _ _ _ Hwf Hle Hp Ep) as (avail & Ha & Hpost).
  exists avail. cbn [st base retained max_data]. split; [exact Ha|]. split; [exact Hpost|]. repeat split.
Qed.

Lemma pick_sent m flow avail m' s e fr :
  WF m -> pick_post m flow avail m' s e fr ->
  if fr then s = sent_of m /\ sent_of m' = e else e <= sent_of m /\ sent_of m' = sent_of m.
Proof.
  intros Hwf [P Hse _ _ P8]. pose proof P as [P2 P1 P4 P6 P7].
  destruct (sent_of_spec _ Hwf) as (S1 & S2 & S3). destruct fr.
  - assert (Hs : s = sent_of m).
    { destruct (N.lt_trichotomy (sent_of m) s) as [H|[H|H]]; [|auto|]; exfalso.
      - destruct (P8 _ H) as [Hq|Hq]; rewrite S2 in Hq by lia; discriminate.
      - apply (S3 s H). apply P6. lia. }
    split; [exact Hs|]. apply (is_sent_unique m'); [apply sent_of_spec; exact P2|].
    unfold is_sent. rewrite P1. split; [exact P4|].
    split; intros i Hi; rewrite P7 by lia; destruct (range_spec s e i); try lia; try discriminate.
    + apply S2. lia.
    + apply S3. lia.
  - split.
    + destruct (N.le_gt_cases e (sent_of m)); [assumption|exfalso].
      assert (Hq : colr m (e - 1) = Lost) by (apply P6; lia). rewrite S2 in Hq by lia. discriminate.
    + apply sent_same; auto; [lia| |intros; lia]. apply (post_keeps _ _ _ _ _ _ _ P). intros x ->. split; discriminate.
Qed.

Lemma step_pick c b pred flow b' s e fr d :
  Inv b -> (forall o a, pred o = Some a -> 1 <= a) ->
  pick_up c b pred flow = UpOk b' s e fr d ->
  stepped b b' (written b) (if fr then sent b + (e - s) else sent b) /\ (Tight b -> d = slice c s (e - s)).
Proof.
  intros HI Hp E. destruct (pick_up_facts _ _ _ _ _ _ _ _ _ HI Hp E) as (avail & Ha & Hpost & Eb & Er & Em & Ed).
  destruct HI as [Hwf Hsz Hsm]. pose proof (pick_sent _ _ _ _ _ _ _ Hwf Hpost) as Hs.
  destruct Hpost as [P Hse _ _ _]. pose proof P as [P2 P1 P4 P6 _].
  split; [split; [|split; [|split]]|].
  - constructor; [exact P2| |rewrite P1; exact Hsm]. unfold written; rewrite P1, Eb, Er, Em; exact Hsz.
  - unfold written. now rewrite Eb, Er.
  - unfold sent. destruct fr; destruct Hs as [Hs1 Hs2]; rewrite Hs2; [rewrite <- Hs1|]; lia.
  - intro T. unfold Tight. rewrite Eb. apply (lead_same _ _ _ T P1), (post_keeps _ _ _ _ _ _ _ P).
    intros x ->. destruct fr; split; discriminate.
  - (* the range is not Recved, so it does not start below [base] *)
    intros (T1 & T2 & T3). rewrite Ed. apply data_of_held; [|lia].
    destruct (N.le_gt_cases (base b) s) as [|H]; [assumption|]. specialize (P6 s ltac:(lia)).
    rewrite (T2 s H) in P6. destruct fr; discriminate.
Qed.

(* SendBuf::on_data_acked / may_loss_data cut the reported range down to its sent part
   [s, min e sent) first (repair of finding F70), and within the sent part neither assertion can fail:
   no side condition on the range is left *)
Lemma sent_part_post f ok m s e res :
  WF m -> char_post f ok m s e res -> e <= sent_of m -> exists m1, res = Some m1 /\ post f ok m s e m1.
Proof.
  intros Hwf H He. destruct (sent_of_spec _ Hwf) as (S1 & _ & S3). destruct res as [m1|]; [eauto|exfalso].
  destruct H as [|(i & Hi & Hq)]; [lia|exact (S3 i ltac:(lia) Hq)].
Qed.

Lemma step_ack b s e :
  Inv b -> exists b', on_data_acked b s e = Some b' /\
  stepped b b' (written b) (sent b) /\ max_data b' = max_data b /\ size (st b') = size (st b) /\
  (forall i, i < size (st b) -> colr (st b') i = if (s <=? i) && (i <? N.min e (sent b)) then Recved else colr (st b) i).
Proof.
  intros HI. pose proof HI as [Hwf Hsz Hsm].
  (* of the end of the range only this is used: it lies within the sent part *)
  unfold on_data_acked. generalize (N.le_min_r e (sent b)). generalize (N.min e (sent b)). clear e. intros e He.
  unfold on_data_acked_sent. destruct (N.leb_spec e s) as [Hes|Hse].
  { exists b. split; [reflexivity|]. split; [exact (stepped_refl b HI)|]. do 2 (split; [reflexivity|]).
    intros i _. destruct (range_spec s e i); [lia|reflexivity]. }
  destruct (sent_part_post _ _ _ _ _ _ Hwf (ack_rcvd_char (st b) s e Hwf Hse) He) as (m1 & -> & P).
  pose proof P as [A1 A2 _ _ A3].
  destruct (shift m1) as [m2 pos] eqn:Es.
  destruct (shift_spec _ _ _ A1 Es) as (H1 & H2 & H3 & HL).
  (* whichever way base and retained are updated: they add up as before, and base is [pos] if it was tight *)
  assert (E' : exists B R, (if base b <? pos then Some (mksb pos (retained b - N.min (pos - base b) (retained b)) (max_data b) m2)
                            else Some (mksb (base b) (retained b) (max_data b) m2)) = Some (mksb B R (max_data b) m2) /\
                           B + R = written b /\ (Tight b -> B = pos)).
  { assert (TightPos : Tight b -> base b <= pos).
    { intros (T1 & T2 & T3). destruct (N.le_gt_cases (base b) pos) as [|Hlt]; [assumption|]. exfalso.
      apply HL; [lia|]. rewrite H3, A3 by lia. destruct ((s <=? pos) && (pos <? e)); [reflexivity|]. apply T2; assumption. }
    destruct HL as (L1 & _). unfold written in *.
    destruct (N.ltb_spec (base b) pos); eexists _, _; (split; [reflexivity|]);
      (split; [lia|]); intro T; specialize (TightPos T); lia. }
  destruct E' as (B & R & -> & HBR & HT). eexists. split; [reflexivity|]. cbn [st max_data].
  split; [|split; [reflexivity|split; [lia|intros i Hi; rewrite H3; apply A3; exact Hi]]].
  apply recolour_facts; auto; [lia| |intros T; rewrite (HT T); exact HL].
  intros i Hi. rewrite H3. apply (post_keeps _ _ _ _ _ _ Pending P); [|exact Hi].
  intros x Hx. split; [discriminate|contradiction].
Qed.

Lemma step_loss b s e :
  Inv b -> exists b', may_loss_data b s e = Some b' /\
  stepped b b' (written b) (sent b) /\ max_data b' = max_data b /\ size (st b') = size (st b) /\
  (forall i, i < size (st b) -> colr (st b') i = if (s <=? i) && (i <? N.min e (sent b)) then lossf (colr (st b) i) else colr (st b) i) /\
  base b' = base b /\ retained b' = retained b.
Proof.
  intros HI. pose proof (inv_wf _ HI) as Hwf.
  unfold may_loss_data. generalize (N.le_min_r e (sent b)). generalize (N.min e (sent b)). clear e. intros e He.
  unfold may_loss_data_sent. destruct (N.leb_spec e s) as [Hes|Hse].
  { exists b. split; [reflexivity|]. split; [exact (stepped_refl b HI)|]. do 2 (split; [reflexivity|]).
    split; [|split; reflexivity]. intros i _. destruct (range_spec s e i); [lia|reflexivity]. }
  destruct (sent_part_post _ _ _ _ _ _ Hwf (may_loss_char (st b) s e Hwf Hse) He) as (m1 & -> & P).
  pose proof P as [A1 A2 _ _ A3]. eexists. split; [reflexivity|].
  split; [|cbn [st max_data base retained]; auto].
  apply recolour_facts; auto; [exact (post_keeps _ _ _ _ _ _ _ P (fun x _ => lossf_pending x))|].
  intro T. exact (lead_same _ _ _ T A2 (post_keeps _ _ _ _ _ _ _ P (fun x _ => lossf_recved x))).
Qed.

Lemma step_resend b : Inv b -> stepped b (resend b) (written b) (sent b).
Proof.
  intros HI. pose proof (inv_wf _ HI) as Hwf.
  destruct (resend_spec _ Hwf) as (A1 & A2 & A3).
  assert (Hk : forall c, (forall x, lossf x = c <-> x = c) -> same_class c (st b) (resend_flighting (st b))).
  { intros c Hc i _. rewrite A3. apply Hc. }
  apply recolour_facts; auto using lossf_pending. intro T. exact (lead_same _ _ _ T A1 (Hk _ lossf_recved)).
Qed.

(* class of operation lists the theorems quantify over.
   non-strict: every operation list (no side condition at all);
   strict: forget_sent_state is only used while nothing has been released (finding F28 otherwise) *)
Definition class_okb (strict : bool) (b : sndbuf) (o : sb_op) : bool :=
  match o with
  | SbForget => if strict then base b =? 0 else true
  | _ => true
  end.

Fixpoint run_ok (strict : bool) (c : N -> Z) (b : sndbuf) (ops : list sb_op) : option (sndbuf * list sb_out) :=
  match ops with
  | [] => Some (b, [])
  | o :: r =>
      if class_okb strict b o then
        match sb_exec c b o with
        | (Some b1, out) =>
            match run_ok strict c b1 r with
            | Some (b2, outs) => Some (b2, out :: outs)
            | None => None
            end
        | (None, _) => None
        end
      else None
  end.

(* [b] is the state and [outs] the results after running [ops] on SendBuf::with_capacity(cap) without
   any failed assertion *)
Definition reach (strict : bool) (c : N -> Z) (cap : N) (ops : list sb_op) (b : sndbuf) (outs : list sb_out) : Prop :=
  run_ok strict c (with_capacity cap) ops = Some (b, outs).

Lemma class_okb_false b o : class_okb false b o = true.
Proof. destruct o; reflexivity. Qed.

Lemma sb_execs_none c ops : fst (sb_execs c None ops) = None.
Proof.
  induction ops as [|o r IH]; cbn [sb_execs]; [reflexivity|].
  destruct (sb_execs c None r) as [b2 outs]. exact IH.
Qed.

(* [run_ok false] is nothing but "sb_execs ends in a live state": no side condition on the op list *)
Lemma run_ok_execs strict c ops : forall b b' outs,
  run_ok strict c b ops = Some (b', outs) -> sb_execs c (Some b) ops = (Some b', outs).
Proof.
  induction ops as [|o r IH]; intros b b' outs H; cbn [run_ok sb_execs] in *.
  - now injection H as <- <-.
  - destruct (class_okb strict b o); [|discriminate].
    destruct (sb_exec c b o) as [[b1|] out]; [|discriminate].
    destruct (run_ok strict c b1 r) as [[b2 outs2]|] eqn:E; [|discriminate]. injection H as <- <-.
    rewrite (IH _ _ _ E). reflexivity.
Qed.

Lemma execs_run_ok c ops : forall b b' outs,
  sb_execs c (Some b) ops = (Some b', outs) -> run_ok false c b ops = Some (b', outs).
Proof.
  induction ops as [|o r IH]; intros b b' outs H; cbn [run_ok sb_execs] in *.
  - now injection H as <- <-.
  - rewrite class_okb_false.
    destruct (sb_exec c b o) as [[b1|] out].
    + destruct (sb_execs c (Some b1) r) as [b2 outs2] eqn:E. injection H as -> <-.
      rewrite (IH _ _ _ E). reflexivity.
    + pose proof (sb_execs_none c r) as Hn. destruct (sb_execs c None r) as [b2 outs2].
      cbn [fst] in Hn. subst b2. discriminate.
Qed.

Lemma run_ok_weaken c ops : forall b b' outs,
  run_ok true c b ops = Some (b', outs) -> run_ok false c b ops = Some (b', outs).
Proof. intros b b' outs H. apply execs_run_ok. exact (run_ok_execs _ _ _ _ _ _ H). Qed.

Lemma run_ok_snoc strict c ops : forall b0 b outs o b' out,
  run_ok strict c b0 ops = Some (b, outs) -> class_okb strict b o = true -> sb_exec c b o = (Some b', out) ->
  run_ok strict c b0 (ops ++ [o]) = Some (b', outs ++ [out]).
Proof.
  induction ops as [|o1 r IH]; intros b0 b outs o b' out H Hc E; cbn [run_ok app] in *.
  - injection H as <- <-. rewrite Hc, E. reflexivity.
  - destruct (class_okb strict b0 o1); [|discriminate].
    destruct (sb_exec c b0 o1) as [[b1|] out1]; [|discriminate].
    destruct (run_ok strict c b1 r) as [[b2 outs2]|] eqn:Er; [|discriminate]. injection H as <- <-.
    rewrite (IH _ _ _ _ _ _ Er Hc E). reflexivity.
Qed.

Definition total_written (ops : list sb_op) : N :=
  fold_right (fun o acc => match o with SbWrite len => len + acc | _ => acc end) 0 ops.

(* sum of the lengths reported as fresh since the last forget_sent_state, starting from [acc] *)
Fixpoint fresh_sum (acc : N) (ops : list sb_op) (outs : list sb_out) : N :=
  match ops, outs with
  | o :: r, out :: r' =>
      fresh_sum (match o, out with
                 | SbForget, _ => 0
                 | _, OPick s e true _ => acc + (e - s)
                 | _, _ => acc
                 end) r r'
  | _, _ => acc
  end.

Lemma pred_of_pos cap blk : cap <> 0 -> forall o a, pred_of cap blk o = Some a -> 1 <= a.
Proof. intros H o a. unfold pred_of. destruct (o <? blk); [|discriminate]. intro E. injection E as <-. lia. Qed.

Lemma step_all strict c b o b' out :
  Inv b -> class_okb strict b o = true -> sb_exec c b o = (Some b', out) ->
  Inv b' /\ written b' = written b + total_written [o] /\
  (strict = true -> Tight b -> Tight b') /\ fresh_sum (sent b) [o] [out] = sent b'.
Proof.
  intros HI Hc E.
  assert (Most : stepped b b' (written b + total_written [o]) (fresh_sum (sent b) [o] [out]) ->
            Inv b' /\ written b' = written b + total_written [o] /\
            (strict = true -> Tight b -> Tight b') /\ fresh_sum (sent b) [o] [out] = sent b').
  { intros (S1 & S2 & S3 & S4). auto. }
  unfold total_written in *.
  destruct o as [len|mx|cap flow blk|s e|s e| |]; cbn [sb_exec class_okb fold_right fresh_sum] in *; [apply Most; rewrite ?N.add_0_r..|clear Most].
  - destruct (write b len) as [b1|] eqn:Ew; [|discriminate]. injection E as <- <-. apply (step_write _ _ _ HI Ew).
  - destruct (extend b mx) as [b1|] eqn:Ex; [|discriminate]. injection E as <- <-. apply (step_extend _ _ _ HI Ex).
  - destruct (N.eqb_spec cap 0) as [->|Hcap]; [discriminate|].
    destruct (pick_up c b (pred_of cap blk) flow) as [b1 s e fr d|w f g|] eqn:Ep; [| |discriminate]; injection E as <- <-.
    + destruct fr; apply (step_pick _ _ _ _ _ _ _ _ _ HI (pred_of_pos cap blk Hcap) Ep).
    + exact (stepped_refl b HI).
  - destruct (step_ack b s e HI) as (b1 & Ea & S & _). rewrite Ea in E. injection E as <- <-. exact S.
  - destruct (step_loss b s e HI) as (b1 & Ea & S & _). rewrite Ea in E. injection E as <- <-. exact S.
  - injection E as <- <-. exact (step_resend b HI).
  - injection E as <- <-. unfold forget_sent_state.
    split; [constructor; unfold written, WF, empty_map; cbn [st size runs base retained max_data wfl]; [exact I|lia|reflexivity]|].
    split; [unfold written; cbn [base retained]; lia|]. split; [|reflexivity].
    intros -> _. apply N.eqb_eq in Hc. unfold Tight, empty_map. cbn [base st size runs]. rewrite Hc.
    split; [lia|]. split; intros; lia.
Qed.

Lemma run_spec strict c ops : forall b b' outs,
  Inv b -> run_ok strict c b ops = Some (b', outs) ->
  Inv b' /\ written b' = written b + total_written ops /\
  (strict = true -> Tight b -> Tight b') /\ fresh_sum (sent b) ops outs = sent b'.
Proof.
  induction ops as [|o r IH]; intros b b' outs HI H; cbn [run_ok] in H.
  - injection H as <- <-. unfold total_written. cbn [fold_right fresh_sum].
    split; [exact HI|]. split; [lia|]. split; [auto|reflexivity].
  - destruct (class_okb strict b o) eqn:Ec; [|discriminate].
    destruct (sb_exec c b o) as [[b1|] out] eqn:Ee; [|discriminate].
    destruct (run_ok strict c b1 r) as [[b2 outs2]|] eqn:Er; [|discriminate]. injection H as <- <-.
    destruct (step_all _ _ _ _ _ _ HI Ec Ee) as (S1 & S2 & S3 & S4).
    destruct (IH _ _ _ S1 Er) as (I1 & I2 & I3 & I4).
    split; [exact I1|]. split; [|split].
    + rewrite I2, S2. unfold total_written. destruct o; cbn [fold_right]; lia.
    + intros Hs HT. apply I3; [exact Hs|]. apply S3; assumption.
    + rewrite <- I4, <- S4. reflexivity.
Qed.

Lemma reach_inv strict c cap ops b outs : reach strict c cap ops b outs ->
  Inv b /\ written b = total_written ops /\ (strict = true -> Tight b) /\ fresh_sum 0 ops outs = sent b.
Proof.
  intro H. destruct (Inv_init cap) as [I0 T0].
  destruct (run_spec _ _ _ _ _ _ I0 H) as (R1 & R2 & R3 & R4).
  split; [exact R1|]. split; [rewrite R2; unfold written, with_capacity; cbn [base retained]; lia|].
  split; [intro Hs; apply R3; assumption|exact R4].
Qed.

Definition in_range (s e i : N) : bool := (s <=? i) && (i <? e).

Lemma colour_at_some m i c : colour_at m i = Some c <-> i < size m /\ colr m i = c.
Proof.
  rewrite colour_at_colr. destruct (N.ltb_spec i (size m)); split.
  - intro Hq. injection Hq as <-. split; [assumption|reflexivity].
  - intros [_ <-]. reflexivity.
  - discriminate.
  - intros [H1 _]. lia.
Qed.

Lemma colour_at_neq m i c : colr m i <> c -> colour_at m i <> Some c.
Proof. intros H Hc. apply colour_at_some in Hc. tauto. Qed.

(* [g] need only be [f] on [Some]: the range lying within the size, [fun _ => Some Recved] serves as well
   as [option_map f] *)
Lemma colour_at_recol f g m m' s e :
  size m' = size m -> e <= size m -> (forall c, g (Some c) = Some (f c)) ->
  (forall i, i < size m -> colr m' i = if in_range s e i then f (colr m i) else colr m i) ->
  forall i, colour_at m' i = if in_range s e i then g (colour_at m i) else colour_at m i.
Proof.
  intros Hs He Hg Hc i. rewrite !colour_at_colr, Hs. destruct (N.ltb_spec i (size m)) as [Hi|Hi].
  - rewrite Hc by exact Hi. destruct (in_range s e i); [symmetry; apply Hg|reflexivity].
  - unfold in_range. destruct (range_spec s e i); [lia|reflexivity].
Qed.

Lemma post_at f g m s e m' :
  post f not_pending m s e m' -> (forall c, g (Some c) = Some (f c)) ->
  WF m' /\ size m' = size m /\ e <= size m /\
  (forall i, s <= i < e -> colour_at m i <> Some Pending) /\
  (forall i, colour_at m' i = if in_range s e i then g (colour_at m i) else colour_at m i).
Proof.
  intros [P1 P2 P3 P4 P5] Hg. do 3 (split; [assumption|]).
  split; [intros i Hi; apply colour_at_neq, P4, Hi|apply (colour_at_recol f g); assumption].
Qed.

Lemma pick_post_at m pred flow avail m' s e fr :
  pred s = Some avail -> pick_post m flow avail m' s e fr ->
  WF m' /\ size m' = size m /\ s < e /\ e <= size m /\
  (exists a, pred s = Some a /\ e - s <= a) /\
  (exists col, (col = Lost \/ (col = Pending /\ flow <> 0 /\ e - s <= flow)) /\ fr = is_pending col /\
               forall i, s <= i < e -> colour_at m i = Some col) /\
  (forall i, i < s -> colour_at m i = Some Flighting \/ colour_at m i = Some Recved) /\
  (forall i, colour_at m' i = if in_range s e i then Some Flighting else colour_at m i).
Proof.
  intros Ha [[P2 P1 P4 P6 P7] P3 P5 Hfl P8]. do 4 (split; [assumption|]).
  split; [exists avail; split; assumption|]. split; [|split].
  - exists (if fr then Pending else Lost). split; [destruct fr; [right; split; [reflexivity|exact (Hfl eq_refl)]|left; reflexivity]|].
    split; [destruct fr; reflexivity|]. intros i Hi. apply colour_at_some. split; [lia|]. apply P6; exact Hi.
  - intros i Hi. destruct (P8 i Hi) as [H|H]; [left|right]; apply colour_at_some; (split; [lia|exact H]).
  - apply (colour_at_recol (fun _ => Flighting) (fun _ => Some Flighting)); auto.
Qed.

Lemma lead_at m p : lead m p ->
  p <= size m /\ (forall i, i < p -> colour_at m i = Some Recved) /\ (p < size m -> colour_at m p <> Some Recved).
Proof.
  intros (L1 & L2 & L3). split; [exact L1|]. split.
  - intros i Hi. apply colour_at_some. split; [lia|apply L2; exact Hi].
  - intros Hp. apply colour_at_neq, L3, Hp.
Qed.

(* the operations fail (PV) only when the Rust's debug assertions fail: under the preconditions
   "range end within size, no Pending byte covered" they succeed *)
Lemma char_post_total f ok m s e res :
  char_post f ok m s e res -> e <= size m -> (forall i, s <= i < e -> colour_at m i <> Some Pending) -> res <> None.
Proof.
  intros H He Hnp ->. destruct H as [|(i & Hi & Hc)]; [lia|]. apply (Hnp i Hi). apply colour_at_some. split; [lia|exact Hc].
Qed.

Lemma retain_facts c b : Inv b -> Tight b ->
  base b <= size (st b) /\ size (st b) <= written b /\
  (forall i, i < base b -> colour_at (st b) i = Some Recved) /\
  (base b < size (st b) -> colour_at (st b) (base b) <> Some Recved) /\
  (forall s e, base b <= s -> e <= written b -> data_of c b s e = slice c s (e - s)).
Proof.
  intros [I1 I2 I3] T. destruct (lead_at _ _ T) as (L1 & L2 & L3).
  split; [exact L1|]. split; [lia|]. split; [exact L2|]. split; [exact L3|]. intros s e. apply data_of_held.
Qed.

Lemma pick_facts c b pred flow b' s e fr d :
  Inv b -> Tight b -> (forall o a, pred o = Some a -> 1 <= a) ->
  pick_up c b pred flow = UpOk b' s e fr d ->
  s < e /\ e <= N.min (written b) (max_data b) /\
  (exists a, pred s = Some a /\ e - s <= a) /\
  (exists col, (col = Lost \/ col = Pending) /\ (fr = true <-> col = Pending) /\
               forall i, s <= i < e -> colour_at (st b) i = Some col) /\
  (fr = true -> flow <> 0 /\ e - s <= flow) /\
  (forall i, i < s -> colour_at (st b) i = Some Flighting \/ colour_at (st b) i = Some Recved) /\
  (forall i, colour_at (st b') i = if in_range s e i then Some Flighting else colour_at (st b) i) /\
  d = slice c s (e - s).
Proof.
  intros HI HT Hp E.
  destruct (step_pick _ _ _ _ _ _ _ _ _ HI Hp E) as (_ & Hd). specialize (Hd HT).
  destruct (pick_up_facts _ _ _ _ _ _ _ _ _ HI Hp E) as (a & Ha & Hpost & _).
  destruct (pick_post_at _ _ _ _ _ _ _ _ Ha Hpost) as (_ & _ & P3 & P4 & P5 & (col & Hcol & -> & Q6) & Q7 & Q8).
  pose proof (inv_size _ HI) as I2. split; [exact P3|]. split; [lia|]. split; [exact P5|].
  split; [|split; [|split; [exact Q7|split; [exact Q8|exact Hd]]]].
  - exists col. split; [|split; [|exact Q6]]; destruct Hcol as [->|(-> & _)]; cbn; intuition congruence.
  - destruct Hcol as [->|(-> & Hf & Hl)]; [discriminate|auto].
Qed.

Lemma pending_suffix m : WF m ->
  sent_of m <= size m /\ forall i, colour_at m i = Some Pending <-> sent_of m <= i < size m.
Proof.
  intros Hwf. destruct (sent_of_spec _ Hwf) as (S1 & S2 & S3). split; [exact S1|].
  intro i. rewrite colour_at_some. split.
  - intros [Hi Hc]. split; [|exact Hi]. destruct (N.le_gt_cases (sent_of m) i) as [|H]; [assumption|].
    exfalso. exact (S3 i H Hc).
  - intros Hi. split; [lia|apply S2; exact Hi].
Qed.

(* the fresh lengths since the last forget add up to sent() (reach_inv); a fresh pick starts at sent() and
   moves it to the end of the range, so the fresh ranges tile [0, sent) : every byte is fresh at most once *)
Lemma fresh_at_sent c b pred flow b' s e d :
  Inv b -> (forall o a, pred o = Some a -> 1 <= a) ->
  pick_up c b pred flow = UpOk b' s e true d -> s = sent b /\ e = sent b' /\ s < e.
Proof.
  intros HI Hp E.
  destruct (pick_up_facts _ _ _ _ _ _ _ _ _ HI Hp E) as (a & Ha & Hpost & _).
  destruct (pick_sent _ _ _ _ _ _ _ (inv_wf _ HI) Hpost) as [Hs1 Hs2].
  split; [exact Hs1|]. split; [symmetry; exact Hs2|exact (pick_lt _ _ _ _ _ _ _ Hpost)].
Qed.

Lemma sent_mono c b o b' out :
  Inv b -> sb_exec c b o = (Some b', out) -> o <> SbForget -> sent b <= sent b'.
Proof.
  intros HI E Ho.
  destruct (step_all _ _ _ _ _ _ HI (class_okb_false b o) E) as (_ & _ & _ & S4).
  rewrite <- S4. cbn [fresh_sum]. destruct o; try congruence; destruct out as [| ? ? [] ?| |]; (reflexivity || apply N.le_add_r).
Qed.

(* the Pending bytes are those from sent() on, and sent() does not fall: no byte becomes Pending again *)
Lemma no_repending c b o b' out i col :
  Inv b -> sb_exec c b o = (Some b', out) ->
  o <> SbForget -> colour_at (st b) i = Some col -> col <> Pending ->
  exists col', colour_at (st b') i = Some col' /\ col' <> Pending.
Proof.
  intros HI E Ho Hcol Hne. pose proof (sent_mono _ _ _ _ _ HI E Ho) as Hm. unfold sent in Hm.
  destruct (step_all _ _ _ _ _ _ HI (class_okb_false b o) E) as ([Hwf' _ _] & _).
  destruct (sent_of_spec _ (inv_wf _ HI)) as (_ & S2 & _). destruct (sent_of_spec _ Hwf') as (S1' & _ & S3').
  apply colour_at_some in Hcol. destruct Hcol as [Hi Hq].
  assert (Hlt : i < sent_of (st b)).
  { destruct (N.lt_ge_cases i (sent_of (st b))); [assumption|]. rewrite S2 in Hq by lia. congruence. }
  exists (colr (st b') i). split; [apply colour_at_some; split; [lia|reflexivity]|apply S3'; lia].
Qed.

Lemma pick_up_total c b pred flow :
  Inv b -> (forall o, exists a, pred o = Some a /\ a < two62) ->
  match pick_up c b pred flow with
  | UpOk _ _ _ _ _ => True
  | UpErr _ _ _ => forall i, colr (st b) i = Flighting \/ colr (st b) i = Recved \/ (colr (st b) i = Pending /\ flow = 0)
  | UpPV => False
  end.
Proof.
  intros [Hwf Hsz Hsm] Hg. unfold pick_up, pick.
  pose proof (pick_scan_spec flow (max_data b) (runs (st b)) true false) as Hs.
  destruct (pick_scan flow (max_data b) (runs (st b)) true false) as [[[[pre [st0 c0]] rest]|] [w f]].
  - destruct Hs as (Hr & _). destruct (cut_at _ st0 pre c0 rest Hwf Hr) as (_ & _ & Hst0 & _).
    destruct (Hg st0) as (a & -> & Ha).
    set (allowance := match c0 with Lost => a | _ => N.min a flow end).
    assert (allowance <= a) by (unfold allowance; destruct c0; lia).
    destruct (N.leb_spec two64 (st0 + allowance)); [unfold two64, two62 in *; lia|].
    destruct (st0 + allowance <? _); exact I.
  - intro i. apply (skipped_col _ _ 0 _ i Hs). apply (wfl_weaken _ _ _ _ _ Hwf); lia.
Qed.

Lemma lost_reoffered c b i k flow :
  Inv b -> colour_at (st b) i = Some Lost -> 1 <= k -> k < two62 ->
  exists b' s e d, pick_up c b (fun _ => Some k) flow = UpOk b' s e false d /\ s <= i /\ s < e /\
                   forall j, s <= j < e -> colour_at (st b) j = Some Lost.
Proof.
  intros HI Hc Hk1 Hk2. apply colour_at_some in Hc. destruct Hc as [Hi Hc].
  assert (Eu : exists b' s e fr d, pick_up c b (fun _ => Some k) flow = UpOk b' s e fr d).
  { pose proof (pick_up_total c b (fun _ => Some k) flow HI (fun _ => ex_intro _ k (conj eq_refl Hk2))) as T.
    destruct (pick_up c b _ flow); [eexists _, _, _, _, _; reflexivity| |contradiction]. destruct (T i) as [Hq|[Hq|[Hq _]]]; congruence. }
  destruct Eu as (b' & s & e & fr & d & Eu).
  assert (Hp : forall (o a : N), (fun _ : N => Some k) o = Some a -> 1 <= a) by (intros o a Hq; injection Hq as <-; exact Hk1).
  destruct (pick_up_facts _ _ _ _ _ _ _ _ _ HI Hp Eu) as (a & Ha & Hpost & _).
  pose proof (pick_sent _ _ _ _ _ _ _ (inv_wf _ HI) Hpost) as Hs.
  destruct Hpost as [[_ _ P4 P6 _] P3 _ _ P8].
  assert (Hsi : s <= i).
  { destruct (N.le_gt_cases s i) as [|H]; [assumption|]. exfalso. destruct (P8 i H) as [Hq|Hq]; congruence. }
  destruct fr.
  { (* a fresh range starts at sent(), and nothing from there on is Lost *)
    exfalso. destruct Hs as [Hs1 _]. destruct (sent_of_spec _ (inv_wf _ HI)) as (_ & S2 & _).
    rewrite S2 in Hc by lia. discriminate. }
  exists b', s, e, d. split; [exact Eu|]. split; [exact Hsi|]. split; [exact P3|].
  intros j Hj. apply colour_at_some. split; [lia|apply P6; exact Hj].
Qed.

Lemma complete_iff b : Tight b ->
  (is_all_rcvd b = true <-> forall i, i < written b -> colour_at (st b) i = Some Recved).
Proof.
  intros (T1 & T2 & T3). unfold is_all_rcvd, written in *. split.
  - intros Hr i Hi. apply N.eqb_eq in Hr. apply colour_at_some. split; [lia|]. apply T2. lia.
  - intros Hall. apply N.eqb_eq.
    destruct (N.eq_dec (retained b) 0) as [Hz|Hnz]; [exact Hz|exfalso].
    assert (Hb : base b < base b + retained b) by lia.
    specialize (Hall (base b) Hb). apply colour_at_some in Hall. destruct Hall as [Hs Hq].
    exact (T3 Hs Hq).
Qed.

Lemma pick_nonempty c b pred flow b' s e fr d :
  Inv b -> (forall o a, pred o = Some a -> 1 <= a) -> pick_up c b pred flow = UpOk b' s e fr d -> s < e.
Proof. intros HI Hp E. destruct (pick_up_facts _ _ _ _ _ _ _ _ _ HI Hp E) as (a & _ & Hpost & _). exact (pick_lt _ _ _ _ _ _ _ Hpost). Qed.

(* the hypothesis covers an empty or inverted range and one that lies completely in the never-sent part *)
Lemma report_noop b s e : N.min e (sent b) <= s ->
  on_data_acked b s e = Some b /\ may_loss_data b s e = Some b.
Proof.
  intros H. unfold on_data_acked, may_loss_data, on_data_acked_sent, may_loss_data_sent.
  destruct (N.leb_spec (N.min e (sent b)) s); [split; reflexivity|lia].
Qed.

(* finding F70 (repaired): SendBuf::on_data_acked / may_loss_data act on the sent part of the reported
   range only.  In every state that satisfies the invariant - so after every operation list - NO report,
   whatever its range, can fail one of BufMap's assertions, and the never-sent bytes keep their colour *)
Lemma report_total b s e : Inv b -> on_data_acked b s e <> None /\ may_loss_data b s e <> None.
Proof.
  intros HI. destruct (step_ack b s e HI) as (? & -> & _). destruct (step_loss b s e HI) as (? & -> & _). split; discriminate.
Qed.

Lemma report_ack_facts b s e b' : Inv b -> on_data_acked b s e = Some b' ->
  written b' = written b /\ sent b' = sent b /\ max_data b' = max_data b /\ size (st b') = size (st b) /\
  (forall i, colour_at (st b') i = if in_range s (N.min e (sent b)) i then Some Recved else colour_at (st b) i).
Proof.
  intros HI E. destruct (step_ack b s e HI) as (b1 & E1 & (_ & A1 & A2 & _) & A3 & A4 & A5). rewrite E in E1. injection E1 as <-.
  split; [exact A1|]. split; [exact A2|]. split; [exact A3|]. split; [exact A4|].
  destruct (sent_of_spec _ (inv_wf _ HI)) as (S1 & _).
  apply (colour_at_recol (fun _ => Recved) (fun _ => Some Recved)); auto. unfold sent. lia.
Qed.

Lemma report_loss_facts b s e b' : Inv b -> may_loss_data b s e = Some b' ->
  written b' = written b /\ sent b' = sent b /\ max_data b' = max_data b /\ size (st b') = size (st b) /\
  base b' = base b /\ retained b' = retained b /\
  (forall i, colour_at (st b') i = if in_range s (N.min e (sent b)) i then option_map lossf (colour_at (st b) i) else colour_at (st b) i).
Proof.
  intros HI E. destruct (step_loss b s e HI) as (b1 & E1 & (_ & A1 & A2 & _) & A3 & A4 & A5 & A6 & A7). rewrite E in E1. injection E1 as <-.
  split; [exact A1|]. split; [exact A2|]. split; [exact A3|]. split; [exact A4|]. split; [exact A6|]. split; [exact A7|].
  destruct (sent_of_spec _ (inv_wf _ HI)) as (S1 & _).
  apply (colour_at_recol lossf (option_map lossf)); auto. unfold sent. lia.
Qed.
