(* Lemmas about PacketSpace: what each pass does to the bytes in flight, to packet states, and
   which packets a detection pass may report. *)
From Coq Require Import List ZArith Bool Lia.
From GQ Require Import Model.LossDetect Proofs.NewReno.
Import ListNotations.
Local Open Scope Z_scope.

(* what a packet contributes to bytes_in_flight *)
Definition flight1 (p : pkt) : Z := if p_cc p && is_inflight p then p_size p else 0.
Fixpoint flight (ps : list pkt) : Z :=
  match ps with [] => 0 | p :: rest => flight1 p + flight rest end.

Lemma flight1_nonneg p : 0 <= p_size p -> 0 <= flight1 p.
Proof. unfold flight1. destruct (p_cc p && is_inflight p); lia. Qed.

Lemma flight_nonneg ps : sizes_ok ps -> 0 <= flight ps.
Proof. induction 1; cbn [flight]; [lia|]. pose proof (flight1_nonneg x H). lia. Qed.

Lemma flight_app a b : flight (a ++ b) = flight a + flight b.
Proof. induction a; cbn [flight app]; lia. Qed.

Lemma flight1_set_st p st : pstate_eqb st Inflight = false -> flight1 (set_st p st) = 0.
Proof. intro H. unfold flight1, is_inflight, set_st; cbn. now rewrite H, andb_false_r. Qed.

Definition noinfl (pn : Z) (ps : list pkt) : Prop :=
  forall p, In p ps -> p_pn p = pn -> is_inflight p = false.

(* the pass from ps to ps' put nothing in flight; every statement below about packet states
   (Inflight packets were sent in the past, an acknowledged number stays out of flight) lives on this *)
Definition infl_incl (ps' ps : list pkt) : Prop :=
  forall q, In q ps' -> is_inflight q = true -> In q ps.

Lemma infl_incl_refl ps : infl_incl ps ps.
Proof. intros q Hq _. exact Hq. Qed.

Lemma infl_incl_trans a b c : infl_incl a b -> infl_incl b c -> infl_incl a c.
Proof. intros H1 H2 q Hq Hi. apply H2; [now apply H1|exact Hi]. Qed.

Lemma infl_incl_noinfl ps' ps pn : infl_incl ps' ps -> noinfl pn ps -> noinfl pn ps'.
Proof.
  intros H N q Hq Hpn. destruct (is_inflight q) eqn:E; [|reflexivity].
  now rewrite (N q (H q Hq E) Hpn) in E.
Qed.

(* the packets of a space and the controller agree: bytes_in_flight is what these packets have in
   flight plus k bytes, those of the other spaces, and no saturating subtraction has saturated.
   Every pass over the space keeps this with the same k: it moves bytes_in_flight by exactly what
   left the space *)
Definition space_ok (m k : Z) (ps : list pkt) (r : reno) : Prop :=
  reno_ok m r /\ r_sat r = false /\ sizes_ok ps /\ 0 <= k /\ bif r = flight ps + k.

(* the only reason for the window to grow *)
Definition fresh_ack (r : reno) (ps : list pkt) (rs : list (Z * Z)) : Prop :=
  exists p, In p ps /\ in_ranges (p_pn p) rs = true /\ is_acked p = false /\ p_cc p = true /\
            in_recovery r (p_time p) = false.

Lemma ack_walk_ok m rs ps : forall k r r1 ps' e l,
  ack_walk r ps rs = (r1, ps', e, l) -> space_ok m k ps r ->
  space_ok m k ps' r1 /\ rstart r1 = rstart r /\ cwnd r <= cwnd r1 /\
  (cwnd r < cwnd r1 -> fresh_ack r ps rs).
Proof.
  induction ps as [|p rest IH]; intros k r r1 ps' e l Hw Hok; cbn [ack_walk] in Hw.
  - injection Hw as <- <- _ _. split; [exact Hok|]. split; [reflexivity|]. split; lia.
  - destruct (ack_walk r rest rs) as [[[r0 rest'] e0] l0] eqn:Hrec.
    destruct Hok as (Hr & Hsat & Hs & Hk & Hb). inversion Hs as [|? ? Hp Hrest]; subst.
    cbn [flight] in Hb. pose proof (flight1_nonneg p Hp) as Hp1.
    (* the tail is walked first: to it, the bytes of p are among those of the other spaces *)
    destruct (IH (k + flight1 p) r r0 rest' e0 l0 Hrec) as ((B1 & B2 & B3 & _ & B4) & B5 & B6 & B7).
    { split; [exact Hr|]. split; [exact Hsat|]. split; [exact Hrest|lia]. }
    pose proof (flight_nonneg rest' B3) as Hr1.
    assert (Htail : cwnd r < cwnd r0 -> fresh_ack r (p :: rest) rs).
    { intro Hlt. destruct (B7 Hlt) as (q & Q1 & Q2). exists q. split; [now right|exact Q2]. }
    destruct (in_ranges (p_pn p) rs && negb (is_acked p)) eqn:Hc; injection Hw as <- <- _ _;
      unfold space_ok; cbn [flight].
    + destruct (on_packet_acked_spec m r0 p B1 Hp) as (C1 & C2 & C3 & C4 & C5 & C6);
        [change (flight1 p <= bif r0); lia|].
      change (if p_cc p && pstate_eqb (p_st p) Inflight then p_size p else 0) with (flight1 p) in C3.
      rewrite (flight1_set_st p AckedS eq_refl).
      split.
      { split; [exact C1|]. split; [congruence|]. split; [constructor; [exact Hp|exact B3]|lia]. }
      split; [congruence|]. split; [lia|]. intro Hlt.
      destruct (Z_lt_le_dec (cwnd r0) (cwnd (on_packet_acked r0 p))) as [Hg|Hg].
      * destruct (C6 Hg) as (G1 & G2).
        apply andb_true_iff in Hc. destruct Hc as (H1 & H2). apply negb_true_iff in H2.
        exists p. repeat split; auto; [now left|]. unfold in_recovery in *. now rewrite <- B5.
      * apply Htail. lia.
    + split.
      { split; [exact B1|]. split; [exact B2|]. split; [constructor; [exact Hp|exact B3]|lia]. }
      split; [exact B5|]. split; [exact B6|exact Htail].
Qed.
Arguments ack_walk_ok {m rs ps k r r1 ps' e l}.

Lemma ack_walk_states rs ps : forall r r1 ps' e l,
  ack_walk r ps rs = (r1, ps', e, l) ->
  infl_incl ps' ps /\ (forall pn, in_ranges pn rs = true -> noinfl pn ps').
Proof.
  induction ps as [|p rest IH]; intros r r1 ps' e l Hw; cbn [ack_walk] in Hw.
  - injection Hw as <- <- _ _. split; [apply infl_incl_refl|intros pn _ q []].
  - destruct (ack_walk r rest rs) as [[[r0 rest'] e0] l0] eqn:Hrec.
    destruct (IH r r0 rest' e0 l0 Hrec) as (A1 & A2).
    destruct (in_ranges (p_pn p) rs && negb (is_acked p)) eqn:Hc; injection Hw as <- <- _ _; split.
    + intros q [<-|Hq] Hi; [discriminate Hi|]. right. now apply A1.
    + intros pn Hr q [<-|Hq] Hpn; [reflexivity|]. now apply (A2 pn).
    + intros q [<-|Hq] Hi; [now left|]. right. now apply A1.
    + intros pn Hr q [<-|Hq] Hpn; [|now apply (A2 pn)].
      apply andb_false_iff in Hc. destruct Hc as [Hc|Hc]; [congruence|].
      apply negb_false_iff in Hc. unfold is_acked, is_inflight in *. destruct (p_st p); auto; discriminate.
Qed.
Arguments ack_walk_states {rs ps r r1 ps' e l}.

Lemma pop_front_incl ps : forall p, In p (pop_front ps) -> In p ps.
Proof.
  induction ps as [|a rest IH]; cbn [pop_front]; [auto|].
  destruct (is_inflight a); [auto|]. intros p Hp. right. now apply IH.
Qed.

Lemma pop_front_flight ps : flight (pop_front ps) = flight ps.
Proof.
  induction ps as [|a rest IH]; cbn [pop_front flight]; [reflexivity|].
  destruct (is_inflight a) eqn:E; [reflexivity|].
  rewrite IH. unfold flight1. rewrite E, andb_false_r. lia.
Qed.

Lemma pop_front_keeps_inflight ps : forall p, In p ps -> is_inflight p = true -> In p (pop_front ps).
Proof.
  induction ps as [|a rest IH]; cbn [pop_front]; [auto|].
  intros p [<-|Hp] Hi; [rewrite Hi; now left|].
  destruct (is_inflight a); [now right|now apply IH].
Qed.

(* PacketSpace::on_ack_rcvd: as far as the packets and the controller go, the walk followed by
   pop_front (also on an empty deque, where the Rust returns early) *)
Lemma space_on_ack_walk {s r rs s1 r1 res} :
  space_on_ack s r rs = (s1, r1, res) ->
  exists ps e l, ack_walk r (s_sent s) rs = (r1, ps, e, l) /\ s_sent s1 = pop_front ps.
Proof.
  unfold space_on_ack. destruct (s_sent s) as [|p0 ps0] eqn:Es.
  - intro H; injection H as <- <- _. rewrite Es. now exists [], false, None.
  - rewrite <- Es. destruct (ack_walk r (s_sent s) rs) as [[[r0 ps] el] lg].
    intro H. exists ps, el, lg. destruct lg; injection H as <- <- _; auto.
Qed.

Lemma space_on_ack_ok {m k s r rs s1 r1 res} :
  space_on_ack s r rs = (s1, r1, res) -> space_ok m k (s_sent s) r ->
  space_ok m k (s_sent s1) r1 /\ cwnd r <= cwnd r1 /\
  (cwnd r < cwnd r1 -> fresh_ack r (s_sent s) rs).
Proof.
  intros Hd Hok. destruct (space_on_ack_walk Hd) as (ps & e & l & Hw & E).
  destruct (ack_walk_ok Hw Hok) as ((B1 & B2 & B3 & B4) & _ & B6 & B7).
  split; [|split; [exact B6|exact B7]]. rewrite E. unfold space_ok. rewrite pop_front_flight.
  split; [exact B1|]. split; [exact B2|]. split; [exact (incl_Forall (pop_front_incl ps) B3)|exact B4].
Qed.

Lemma space_on_ack_states {s r rs s1 r1 res} :
  space_on_ack s r rs = (s1, r1, res) ->
  infl_incl (s_sent s1) (s_sent s) /\ (forall pn, in_ranges pn rs = true -> noinfl pn (s_sent s1)).
Proof.
  intro Hd. destruct (space_on_ack_walk Hd) as (ps & e & l & Hw & ->).
  destruct (ack_walk_states Hw) as (A1 & A2). split.
  - intros q Hq. apply A1. now apply pop_front_incl.
  - intros pn H q Hq. apply (A2 pn H). now apply pop_front_incl.
Qed.

Lemma detect_walk_spec lst ld li ps : forall idx ps' lost lt,
  detect_walk ps idx lst ld li = (ps', lost, lt) ->
  sizes_ok ps ->
  flight ps' = flight ps - counted_sum (map snd lost) /\
  0 <= counted_sum (map snd lost) <= flight ps /\
  sizes_ok ps' /\ sizes_ok (map snd lost).
Proof.
  induction ps as [|p rest IH]; intros idx ps' lost lt Hw Hs; cbn [detect_walk] in Hw.
  - injection Hw as <- <- _. cbn. repeat split; try lia; constructor.
  - destruct (detect_walk rest (idx + 1) lst ld li) as [[rest' lost0] lt0] eqn:Hrec.
    inversion Hs as [|? ? Hp Hrest]; subst.
    destruct (IH (idx + 1) rest' lost0 lt0 Hrec Hrest) as (A1 & A2 & A3 & A4).
    pose proof (flight1_nonneg p Hp) as Hp1.
    destruct (is_inflight p) eqn:Ei.
    + destruct ((p_time p <? lst) || (idx + PACKET_THRESHOLD <=? li)); injection Hw as <- <- _.
      * cbn [flight map snd counted_sum]. rewrite (flight1_set_st p Retx eq_refl).
        assert (Hc : (if p_cc (set_st p Retx) then p_size (set_st p Retx) else 0) = flight1 p)
          by (unfold flight1, set_st; cbn; rewrite Ei, andb_true_r; reflexivity).
        rewrite Hc. repeat split; try lia; constructor; assumption.
      * cbn [flight map]. repeat split; try lia; [constructor|]; assumption.
    + injection Hw as <- <- _.
      cbn [flight map]. repeat split; try lia; [constructor|]; assumption.
Qed.
Arguments detect_walk_spec {lst ld li ps idx ps' lost lt}.

(* the loss rule exactly as coded: the packet threshold counts deque positions, not packet numbers *)
Lemma detect_walk_rule lst ld li ps : forall idx ps' lost lt,
  detect_walk ps idx lst ld li = (ps', lost, lt) ->
  (forall i q, In (i, q) lost ->
     exists p, nth_error ps (Z.to_nat (i - idx)) = Some p /\ idx <= i /\ is_inflight p = true /\ q = set_st p Retx /\
               (p_time p < lst \/ i + PACKET_THRESHOLD <= li)) /\
  (forall p, In p ps -> is_inflight p = true -> p_time p < lst -> In (p_pn p) (map (fun x => p_pn (snd x)) lost)) /\
  infl_incl ps' ps.
Proof.
  induction ps as [|p rest IH]; intros idx ps' lost lt Hw; cbn [detect_walk] in Hw.
  - injection Hw as <- <- _. split; [intros i q []|]. split; [intros p []|apply infl_incl_refl].
  - destruct (detect_walk rest (idx + 1) lst ld li) as [[rest' lost0] lt0] eqn:Hrec.
    destruct (IH (idx + 1) rest' lost0 lt0 Hrec) as (A1 & A2 & A3).
    assert (Hshift : forall i q, In (i, q) lost0 ->
       exists p0, nth_error (p :: rest) (Z.to_nat (i - idx)) = Some p0 /\ idx <= i /\ is_inflight p0 = true /\
                  q = set_st p0 Retx /\ (p_time p0 < lst \/ i + PACKET_THRESHOLD <= li)).
    { intros i q Hq. destruct (A1 i q Hq) as (p0 & N & L & R).
      exists p0. split; [|split; [lia|exact R]].
      replace (Z.to_nat (i - idx)) with (S (Z.to_nat (i - (idx + 1)))) by lia. exact N. }
    assert (Hkeep : infl_incl (p :: rest') (p :: rest))
      by (intros q [<-|Hq] Hi; [now left|right; now apply A3]).
    destruct (is_inflight p) eqn:Ei.
    + destruct ((p_time p <? lst) || (idx + PACKET_THRESHOLD <=? li)) eqn:Er; injection Hw as <- <- _.
      * split; [|split].
        -- intros i q [Hq|Hq]; [|now apply Hshift].
           inversion Hq; subst. exists p. replace (i - i) with 0 by lia. cbn.
           apply orb_true_iff in Er.
           split; [reflexivity|]. split; [lia|]. split; [exact Ei|]. split; [reflexivity|].
           destruct Er as [Er|Er]; [left; now apply Z.ltb_lt|right; now apply Z.leb_le].
        -- intros q [<-|Hq] Hi Ht; cbn [map snd]; [left; reflexivity|right; now apply A2].
        -- intros q [<-|Hq] Hi; [discriminate Hi|]. right. now apply A3.
      * apply orb_false_iff in Er. destruct Er as (Er1 & Er2). apply Z.ltb_ge in Er1.
        split; [exact Hshift|]. split; [|exact Hkeep].
        intros q [<-|Hq] Hi Ht; [lia|now apply A2].
    + injection Hw as <- <- _. split; [exact Hshift|]. split; [|exact Hkeep].
      intros q [<-|Hq] Hi Ht; [congruence|now apply A2].
Qed.
Arguments detect_walk_rule {lst ld li ps idx ps' lost lt}.

(* PacketSpace::detect_lost_packets: as far as the packets and the controller go, the walk followed
   by a loss report (which, for an empty report, changes nothing) *)
Lemma detect_lost_walk {s r ld now s' r' lost pers} :
  detect_lost s r ld now = (s', r', lost, pers) ->
  exists l lt,
    detect_walk (s_sent s) 0 (now - ld - s_mad s) ld
                (bsearch_idx (s_sent s) (match s_la s with Some n => n | None => 0 end)) = (s_sent s', l, lt) /\
    lost = map (fun x => p_pn (snd x)) l /\ r' = on_packets_lost r (map snd l) pers now.
Proof.
  unfold detect_lost. destruct (detect_walk _ _ _ _ _) as [[ps l] lt].
  intro H. exists l, lt. destruct l; injection H as <- <- <- <-; repeat split.
Qed.

Lemma detect_lost_ok {m k s r ld now s' r' lost pers} :
  detect_lost s r ld now = (s', r', lost, pers) -> space_ok m k (s_sent s) r ->
  space_ok m k (s_sent s') r' /\ cwnd r' <= cwnd r.
Proof.
  intros Hd (Hok & Hsat & Hs & Hk & Hb). destruct (detect_lost_walk Hd) as (l & lt & Hw & _ & ->).
  destruct (detect_walk_spec Hw Hs) as (A1 & A2 & A3 & A4).
  destruct (on_packets_lost_spec m r (map snd l) pers now Hok A4) as (B1 & B2 & B3 & B4); [lia|].
  split; [|exact B4]. split; [exact B1|]. split; [congruence|]. split; [exact A3|lia].
Qed.

Lemma detect_lost_rule {s r ld now s' r' lost pers} :
  detect_lost s r ld now = (s', r', lost, pers) ->
  (forall pn, In pn lost ->
     exists i p, nth_error (s_sent s) (Z.to_nat i) = Some p /\ 0 <= i /\ p_pn p = pn /\ is_inflight p = true /\
       (p_time p < now - ld - s_mad s \/
        i + PACKET_THRESHOLD <= bsearch_idx (s_sent s) (match s_la s with Some n => n | None => 0 end))) /\
  (forall p, In p (s_sent s) -> is_inflight p = true -> p_time p + ld + s_mad s < now -> In (p_pn p) lost) /\
  infl_incl (s_sent s') (s_sent s).
Proof.
  intro Hd. destruct (detect_lost_walk Hd) as (l & lt & Hw & -> & _).
  destruct (detect_walk_rule Hw) as (A1 & A2 & A3).
  split; [|split; [|exact A3]].
  - intros pn Hin. apply in_map_iff in Hin. destruct Hin as ((i, q) & Hq & Hin). cbn [snd] in Hq.
    destruct (A1 i q Hin) as (p & N & L & I & Q & R).
    exists i, p. rewrite Z.sub_0_r in N.
    subst q. cbn in Hq. repeat split; auto.
  - intros p Hin Hi Ht. apply A2; auto. lia.
Qed.

(* in particular an acknowledged (AckedS) packet is never reported *)
Lemma detect_lost_states {s r ld now s' r' lost pers} :
  detect_lost s r ld now = (s', r', lost, pers) ->
  infl_incl (s_sent s') (s_sent s) /\ (forall pn, In pn lost -> ~ noinfl pn (s_sent s)).
Proof.
  intro Hd. destruct (detect_lost_rule Hd) as (A1 & _ & A3). split; [exact A3|].
  intros pn Hin Hn. destruct (A1 pn Hin) as (i & p & N & _ & Hpn & Hi & _).
  apply nth_error_In in N. rewrite (Hn p N Hpn) in Hi. discriminate.
Qed.

Lemma detect_lost_single {m s r ld now s' r' lost} :
  detect_lost s r ld now = (s', r', lost, false) -> reno_ok m r ->
  Z.max (cwnd r - m) (2 * m) <= cwnd r' /\
  (forall t, rstart r = Some t -> (forall p, In p (s_sent s) -> is_inflight p = true -> p_time p <= t) ->
             cwnd r' = cwnd r).
Proof.
  intros Hd Hok. destruct (detect_lost_walk Hd) as (l & lt & Hw & _ & ->).
  destruct (detect_walk_rule Hw) as (A1 & _).
  destruct (on_packets_lost_single m r (map snd l) now Hok) as (S1 & S2 & _).
  split; [exact S1|].
  intros t Ht Hall. apply S2; [|congruence].
  intros s0 Hs0 p Hin. rewrite Ht in Hs0. inversion Hs0; subst s0.
  apply in_map_iff in Hin. destruct Hin as ((i, q) & Hq & Hin). cbn [snd] in Hq. subst q.
  destruct (A1 i p Hin) as (p0 & N & _ & I & Q & _). subst p. cbn [p_time set_st].
  apply Hall; [now apply nth_error_In in N|exact I].
Qed.

Lemma discard_sum_flight ps : discard_sum (filter is_inflight ps) = flight ps.
Proof.
  induction ps as [|p rest IH]; cbn [filter flight discard_sum]; [reflexivity|].
  destruct (is_inflight p) eqn:E; cbn [discard_sum].
  - rewrite IH. unfold flight1. rewrite E.
    assert (pstate_eqb (p_st p) Retx = false) by (unfold is_inflight in E; destruct (p_st p); auto; discriminate).
    rewrite H. cbn [negb]. reflexivity.
  - rewrite IH. unfold flight1. rewrite E, andb_false_r. lia.
Qed.

Lemma space_discard_ok {m k s r} :
  space_ok m k (s_sent s) r -> space_ok m k (s_sent (fst (space_discard s r))) (snd (space_discard s r)).
Proof.
  intros (Hok & Hsat & Hs & Hk & Hb). unfold space_discard, space_ok. cbn [fst snd s_sent flight].
  pose proof (flight_nonneg _ Hs) as Hf.
  destruct (remove_from_bif_exact r _ (incl_Forall (incl_filter is_inflight _) Hs)) as (R1 & R2 & R3);
    [rewrite discard_sum_flight; lia|].
  destruct (remove_from_bif_window r (filter is_inflight (s_sent s))) as (W1 & W2 & _).
  rewrite discard_sum_flight in R1. destruct Hok as (P1 & P2 & P3 & P4 & P5).
  unfold reno_ok. rewrite W1, W2, R1, R2, R3. repeat split; auto; try lia. constructor.
Qed.

Lemma space_sent_ok {m k ps r pn t elic infl bytes} :
  space_ok m k ps r -> 0 <= bytes ->
  space_ok m k (ps ++ [mkpkt pn t elic infl bytes Inflight]) (if infl then on_packet_sent_cc r bytes else r).
Proof.
  intros ((P1 & P2 & P3 & P4 & P5) & Hsat & Hz & Hk & Hf) Hb.
  unfold space_ok. rewrite flight_app. cbn [flight]. unfold flight1, is_inflight. cbn [p_cc p_st p_size pstate_eqb].
  assert (sizes_ok (ps ++ [mkpkt pn t elic infl bytes Inflight]))
    by (apply Forall_app; split; [exact Hz|constructor; [exact Hb|constructor]]).
  destruct infl; cbn [andb]; unfold on_packet_sent_cc, set_bif, reno_ok; rcbn; rewrite ?Hsat;
    repeat split; auto; lia.
Qed.

(* the space-level part of CongestionController::on_ack_rcvd *)
Definition ack_pass (s : space) (r : reno) (ld now e largest : Z) (cev : option Z) (rs : list (Z * Z))
  : space * reno * list Z * bool :=
  let '(s1, r1, res) := space_on_ack (update_la s largest) r rs in
  match res with
  | Some (_, (_, ltime)) => detect_lost s1 (process_ecn r1 cev ltime e now) ld now
  | None => (s1, r1, [], false)
  end.

Lemma ack_pass_ok {m k s r ld now e largest cev rs s' r' lost pers} :
  ack_pass s r ld now e largest cev rs = (s', r', lost, pers) -> space_ok m k (s_sent s) r ->
  space_ok m k (s_sent s') r' /\
  (cwnd r < cwnd r' -> fresh_ack r (s_sent s) rs).
Proof.
  unfold ack_pass. intros Hp Hok.
  destruct (space_on_ack (update_la s largest) r rs) as [[s1 r1] res] eqn:Ea.
  destruct (space_on_ack_ok Ea Hok) as (G1 & G3 & G4).
  destruct res as [[el [ln lt]]|]; [|injection Hp as <- <- _ _; split; [exact G1|exact G4]].
  destruct G1 as (Hok1 & S1 & Z1 & K1).
  destruct (process_ecn_spec m r1 cev lt e now Hok1) as (E1 & E2 & E3 & E4).
  destruct (detect_lost_ok (m:=m) (k:=k) Hp) as (D1 & D2).
  { unfold space_ok. rewrite E2, E3. split; [exact E1|]. split; [exact S1|]. split; [exact Z1|exact K1]. }
  split; [exact D1|]. intro Hlt. apply G4. destruct Hok1 as (_ & ? & ? & _).
  destruct E4 as [(X & _)|(_ & X & _)]; lia.
Qed.

Lemma ack_pass_states {s r ld now e largest cev rs s' r' lost pers} :
  ack_pass s r ld now e largest cev rs = (s', r', lost, pers) ->
  infl_incl (s_sent s') (s_sent s) /\
  (forall pn, in_ranges pn rs = true -> noinfl pn (s_sent s')) /\
  (forall pn, In pn lost -> ~ noinfl pn (s_sent s) /\ in_ranges pn rs = false).
Proof.
  unfold ack_pass. intro Hp.
  destruct (space_on_ack (update_la s largest) r rs) as [[s1 r1] res] eqn:Ea.
  destruct (space_on_ack_states Ea) as (N1 & N2).
  destruct res as [[el [ln lt]]|];
    [|injection Hp as <- _ <- _; split; [exact N1|split; [exact N2|intros pn []]]].
  destruct (detect_lost_states Hp) as (D1 & D2).
  split; [now apply (infl_incl_trans _ (s_sent s1))|]. split.
  - intros pn H. apply (infl_incl_noinfl _ _ _ D1), N2, H.
  - intros pn H. split.
    + intro X. apply (D2 pn H). now apply (infl_incl_noinfl _ _ _ N1).
    + destruct (in_ranges pn rs) eqn:Er; [|reflexivity]. exfalso. apply (D2 pn H), N2, Er.
Qed.

(* one cut at most, also when the frame carries a new CE mark and triggers losses: the CE event
   opens a recovery period at [now], and every packet the pass can report was sent no later than that *)
Lemma ack_pass_single {m k s r ld now e largest cev rs s' r' lost} :
  ack_pass s r ld now e largest cev rs = (s', r', lost, false) -> space_ok m k (s_sent s) r ->
  (forall p, In p (s_sent s) -> is_inflight p = true -> p_time p <= now) ->
  Z.max (cwnd r - m) (2 * m) <= cwnd r'.
Proof.
  unfold ack_pass. intros Hp Hok Hpast.
  destruct (space_on_ack (update_la s largest) r rs) as [[s1 r1] res] eqn:Ea.
  destruct (space_on_ack_ok Ea Hok) as ((G1 & _) & G3 & _).
  (* the walk does not shrink the window; what follows cuts it at most once *)
  assert (Hm : Z.max (cwnd r - m) (2 * m) <= Z.max (cwnd r1 - m) (2 * m)) by lia.
  destruct (space_on_ack_states Ea) as (N & _).
  destruct res as [[el [ln lt]]|]; [|injection Hp as _ <- _; destruct G1 as (_ & ? & ? & _); lia].
  destruct (process_ecn_spec m r1 cev lt e now G1) as (E1 & _ & _ & E4).
  destruct (detect_lost_single Hp E1) as (S1 & S2).
  destruct E4 as [(X & _)|(_ & X & Y)].
  - rewrite X in S1. exact (Z.le_trans _ _ _ Hm S1).
  - rewrite (S2 now Y), X; [exact Hm|]. intros p Hp0 Hi. apply Hpast; [now apply N|exact Hi].
Qed.
