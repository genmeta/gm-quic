(* Proofs about Model/Flow.v: the connection-level send budget and the advertised receive limit. *)
From Coq Require Import List NArith Bool Lia.
From GQ Require Import Model.Flow.
Import ListNotations.
Local Open Scope N_scope.

Inductive sop :=
| SCredit (quota : N)            (* ArcSendControler::credit *)
| SPost (i : nat) (n : N)        (* Credit::post_sent on the i-th credit *)
| SDrop (i : nat)                (* drop of the i-th credit *)
| SIncrease (v : N)              (* MAX_DATA frame *)
| SRevise (rejected : bool) (v : N).

Fixpoint outstanding (l : list (option N)) : N :=
  match l with
  | [] => 0
  | Some v :: t => v + outstanding t
  | None :: t => outstanding t
  end.

(* controller, outstanding credits (None = dropped), and the two quantities the property speaks
   about (they are not state of the Rust): [ss_posted] = bytes posted as fresh since the last
   rejected 0-RTT attempt (since the beginning if there was none: a rejection discards everything
   sent so far and the server's new initial_max_data counts from zero); [ss_slack] = the unused
   budget that Credits taken BEFORE the last rejection still held at that moment (0 when no Credit
   is alive across a rejection, which is how DataStreams uses the controller: the Credit lives
   inside try_load_data_into_once) *)
Record sst := mkss { ss_c : sctl; ss_cr : list (option N); ss_posted : N; ss_slack : N }.

(* None = an arithmetic panic of the Rust (u64 underflow).  [fx]: see Model/Flow.v sc_revise_with *)
Definition s_step (fx : bool) (st : sst) (o : sop) : option sst :=
  match o with
  | SCredit q =>
    match sc_credit (ss_c st) q with
    | Some (c', av, _) => Some (mkss c' (ss_cr st ++ [Some av]) (ss_posted st) (ss_slack st))
    | None => None
    end
  | SPost i n =>
    match nth_error (ss_cr st) i with
    | Some (Some av) =>
      match credit_post av n with
      | Some av' => Some (mkss (ss_c st) (set_nth (ss_cr st) i (Some av')) (ss_posted st + n) (ss_slack st))
      | None => None
      end
    | _ => Some st
    end
  | SDrop i =>
    match nth_error (ss_cr st) i with
    | Some (Some av) =>
      match sc_return_back (ss_c st) av with
      | Some c' => Some (mkss c' (set_nth (ss_cr st) i None) (ss_posted st) (ss_slack st))
      | None => None
      end
    | _ => Some st
    end
  | SIncrease v => Some (mkss (sc_increase_limit (ss_c st) v) (ss_cr st) (ss_posted st) (ss_slack st))
  | SRevise false v => Some (mkss (sc_revise_with fx (ss_c st) false v) (ss_cr st) (ss_posted st) (ss_slack st))
  | SRevise true v => Some (mkss (sc_revise_with fx (ss_c st) true v) (ss_cr st) 0 (outstanding (ss_cr st)))
  end.

Fixpoint s_exec (fx : bool) (st : sst) (ops : list sop) : option sst :=
  match ops with
  | [] => Some st
  | o :: rest => match s_step fx st o with Some st' => s_exec fx st' rest | None => None end
  end.

(* the accounting identity: every charged byte is either posted as fresh or still held by a live
   credit (up to the budget that straddled the last rejection); and the charge never exceeds the
   limit, so `max_data - sent_data` cannot underflow *)
Definition Sinv (st : sst) : Prop :=
  sent_data (ss_c st) + ss_slack st = ss_posted st + outstanding (ss_cr st)
  /\ sent_data (ss_c st) <= max_data (ss_c st).

(* the only step at which the limit may legitimately go down *)
Definition sop_ok (o : sop) : Prop := match o with SRevise true _ => False | _ => True end.

Lemma outstanding_app l x : outstanding (l ++ [Some x]) = outstanding l + x.
Proof. induction l as [|[v|] t IH]; cbn [outstanding app]; lia. Qed.

Lemma outstanding_set l i av v :
  nth_error l i = Some (Some av) ->
  outstanding (set_nth l i v) + av = outstanding l + match v with Some x => x | None => 0 end.
Proof.
  revert i. induction l as [|h t IH]; intros [|i] H; cbn in H; try discriminate.
  - injection H as ->. cbn [set_nth outstanding]. destruct v; lia.
  - cbn [set_nth]. specialize (IH i H). destruct h; cbn [outstanding]; lia.
Qed.

Lemma sc_credit_spec s quota :
  match sc_credit s quota with
  | Some (s', g, _) => sent_data s <= max_data s /\ g = N.min (max_data s - sent_data s) quota
                       /\ sent_data s' = sent_data s + g /\ max_data s' = max_data s
  | None => max_data s < sent_data s
  end.
Proof.
  unfold sc_credit, sc_available.
  destruct (N.leb_spec (sent_data s) (max_data s)); [|assumption].
  set (g := N.min (max_data s - sent_data s) quota).
  assert (Hg : g <= max_data s - sent_data s) by apply N.le_min_l.
  unfold sc_commit, sc_available. cbn [sent_data max_data flow_limited].
  destruct (N.leb_spec (sent_data s + g) (max_data s)); [|lia].
  destruct (_ && _); cbn [sent_data max_data]; auto.
Qed.

Lemma sc_increase_spec s v :
  sent_data (sc_increase_limit s v) = sent_data s /\ max_data (sc_increase_limit s v) = N.max (max_data s) v.
Proof.
  unfold sc_increase_limit. destruct (N.ltb_spec (max_data s) v); cbn [sent_data max_data]; split; try reflexivity;
    symmetry; [apply N.max_r, N.lt_le_incl|apply N.max_l]; assumption.
Qed.

Lemma sc_revise_spec fx s rej v :
  sent_data (sc_revise_with fx s rej v) = (if rej then if fx then 0 else sent_data s else sent_data s)
  /\ max_data (sc_revise_with fx s rej v) = N.max (if rej then 0 else max_data s) v.
Proof. unfold sc_revise_with. destruct rej; apply sc_increase_spec. Qed.

Lemma sc_return_spec s x :
  sc_return_back s x
  = if (x <=? sent_data s) && (sent_data s - x <=? max_data s)
    then Some (mksctl (sent_data s - x) (max_data s) (flow_limited s)) else None.
Proof.
  unfold sc_return_back, sc_available. cbn [sent_data max_data].
  destruct (x <=? sent_data s); [destruct (sent_data s - x <=? max_data s)|]; reflexivity.
Qed.

Lemma sc_return_some s x :
  x <= sent_data s -> sent_data s - x <= max_data s ->
  sc_return_back s x = Some (mksctl (sent_data s - x) (max_data s) (flow_limited s)).
Proof. intros H1 H2. rewrite sc_return_spec. apply N.leb_le in H1, H2. rewrite H1, H2. reflexivity. Qed.

(* the life of one Credit: taken, [fb] of it posted as fresh bytes, the rest returned at its drop *)
Lemma sc_credit_used s quota c1 q blk fb :
  sc_credit s quota = Some (c1, q, blk) -> fb <= q ->
  exists c2, credit_post q fb = Some (q - fb) /\ sc_return_back c1 (q - fb) = Some c2
             /\ sent_data c2 = sent_data s + fb /\ max_data c2 = max_data s /\ sent_data c2 <= max_data c2.
Proof.
  intros E Hfb. pose proof (sc_credit_spec s quota) as C. rewrite E in C. destruct C as (Hle & Hq & F1 & F2).
  assert (B : sent_data s + fb <= max_data s) by (apply N.eq_le_incl, N.min_glb_l in Hq; lia).
  unfold credit_post. rewrite (proj2 (N.leb_le fb q) Hfb).
  (* the charge after credit(), written as what will stay plus what will be returned *)
  apply N.sub_add in Hfb. rewrite <- Hfb, (N.add_comm (q - fb)), N.add_assoc in F1.
  exists (mksctl (sent_data s + fb) (max_data s) (flow_limited c1)).
  split; [reflexivity|]. split; [|cbn [sent_data max_data]; auto].
  rewrite sc_return_some; rewrite F1, ?F2, ?N.add_sub; [reflexivity| |exact B].
  rewrite N.add_comm. apply N.le_add_r.
Qed.

(* None is never the controller's own arithmetic: a caller posts more than the credit it holds, or
   returns a Credit whose unused budget was taken before a rejection (then ss_slack > 0) *)
Lemma s_step_Sinv st o :
  Sinv st ->
  match s_step true st o with
  | Some st' => Sinv st'
  | None => exists i av, nth_error (ss_cr st) i = Some (Some av)
                         /\ ((exists n, o = SPost i n /\ av < n)
                             \/ (o = SDrop i /\ sent_data (ss_c st) < av /\ 0 < ss_slack st))
  end.
Proof.
  intros [Hs Hle]. destruct o as [q|i n|i|v|rej v]; cbn [s_step].
  - pose proof (sc_credit_spec (ss_c st) q) as C.
    destruct (sc_credit (ss_c st) q) as [[[c' g] blk]|]; [|lia]. destruct C as (_ & Hg & S' & M').
    apply N.eq_le_incl, N.min_glb_l in Hg.
    unfold Sinv. cbn [ss_c ss_cr ss_posted ss_slack]. rewrite outstanding_app, S', M'. lia.
  - destruct (nth_error (ss_cr st) i) as [[av|]|] eqn:E; try (split; assumption).
    unfold credit_post. destruct (N.leb_spec n av); [|exists i, av; split; [exact E|]; left; exists n; split; [reflexivity|assumption]].
    unfold Sinv. cbn [ss_c ss_cr ss_posted ss_slack].
    pose proof (outstanding_set _ _ _ (Some (av - n)) E) as H1. cbn in H1. lia.
  - destruct (nth_error (ss_cr st) i) as [[av|]|] eqn:E; try (split; assumption).
    pose proof (outstanding_set _ _ _ None E) as H2. cbn in H2. rewrite sc_return_spec.
    destruct (N.leb_spec av (sent_data (ss_c st))); cbn [andb];
      [destruct (N.leb_spec (sent_data (ss_c st) - av) (max_data (ss_c st))); [|lia]|].
    + unfold Sinv. cbn [ss_c ss_cr ss_posted ss_slack sent_data max_data]. lia.
    + exists i, av. split; [exact E|]. right. split; [reflexivity|lia].
  - unfold Sinv. cbn [ss_c ss_cr ss_posted ss_slack]. destruct (sc_increase_spec (ss_c st) v) as [-> ->]. lia.
  - destruct (sc_revise_spec true (ss_c st) rej v) as [S' M'].
    destruct rej; unfold Sinv; cbn [ss_c ss_cr ss_posted ss_slack]; rewrite S', M'; lia.
Qed.

Definition s_init (initial : N) : sst := mkss (sctl_new initial) [] 0 0.

Lemma Sinv_init m : Sinv (s_init m).
Proof. unfold Sinv, s_init, sctl_new. cbn. lia. Qed.

Lemma Sinv_exec ops st0 st : Sinv st0 -> s_exec true st0 ops = Some st -> Sinv st.
Proof.
  revert st0. induction ops as [|o rest IH]; intros s0 I0 H; cbn [s_exec] in H.
  - injection H as <-; assumption.
  - pose proof (s_step_Sinv s0 o I0) as I1. destruct (s_step true s0 o); [eauto|discriminate].
Qed.

(* ss_slack is 0 unless a Credit held unused budget at the moment of a rejection *)
Definition quiet_step (st : sst) (o : sop) : Prop :=
  match o with SRevise true _ => outstanding (ss_cr st) = 0 | _ => True end.

Lemma s_step_ok fx st o st' :
  sop_ok o -> s_step fx st o = Some st' ->
  ss_slack st' = ss_slack st /\ max_data (ss_c st) <= max_data (ss_c st').
Proof.
  intros OK H. pose proof (N.le_refl (max_data (ss_c st))) as R.
  destruct o as [q|i n|i|v|rej v]; cbn [s_step] in H.
  - pose proof (sc_credit_spec (ss_c st) q) as C.
    destruct (sc_credit (ss_c st) q) as [[[c' g] blk]|]; [|discriminate]. injection H as <-.
    cbn [ss_c ss_slack]. destruct C as (_ & _ & _ & ->). auto.
  - destruct (nth_error (ss_cr st) i) as [[av|]|]; try (injection H as <-; auto).
    destruct (credit_post av n); [|discriminate]. injection H as <-. auto.
  - destruct (nth_error (ss_cr st) i) as [[av|]|]; try (injection H as <-; auto).
    rewrite sc_return_spec in H. destruct (_ && _); [|discriminate]. injection H as <-. auto.
  - injection H as <-. cbn [ss_c ss_slack]. destruct (sc_increase_spec (ss_c st) v) as [_ ->].
    split; [reflexivity|apply N.le_max_l].
  - destruct rej; [contradiction|]. injection H as <-. cbn [ss_c ss_slack].
    destruct (sc_revise_spec fx (ss_c st) false v) as [_ ->]. split; [reflexivity|apply N.le_max_l].
Qed.

Lemma slack_step fx st o st' : quiet_step st o -> s_step fx st o = Some st' -> ss_slack st = 0 -> ss_slack st' = 0.
Proof.
  intros Q H Z. pose proof (fun OK => proj1 (s_step_ok fx st o st' OK H)) as K.
  destruct o as [q|i n|i|v|[|] v]; try (rewrite (K I); exact Z).
  cbn in H. injection H as <-. exact Q.
Qed.

Fixpoint s_quiet (fx : bool) (st : sst) (ops : list sop) : Prop :=
  match ops with
  | [] => True
  | o :: rest => quiet_step st o /\ match s_step fx st o with Some st' => s_quiet fx st' rest | None => True end
  end.

Fixpoint r_exec (s : rctl) (amounts : list N) : rctl * list rcv_res :=
  match amounts with
  | [] => (s, [])
  | a :: rest =>
    let '(s1, r) := on_new_rcvd s a in
    let '(s2, rs) := r_exec s1 rest in (s2, r :: rs)
  end.

Lemma p_c11_advertised_monotone_frame s a :
  rmax_data s <= rmax_data (fst (on_new_rcvd s a))
  /\ (forall m, snd (on_new_rcvd s a) = RcvOk (Some m) -> m = rmax_data (fst (on_new_rcvd s a)) /\ rmax_data s <= m)
  /\ rstep (fst (on_new_rcvd s a)) = rstep s
  /\ rcvd_data (fst (on_new_rcvd s a)) = rcvd_data s + a.
Proof.
  unfold on_new_rcvd.
  destruct (_ <=? _); [destruct (_ <=? _); [destruct (_ <? _)|]|]; cbn [fst snd rmax_data rstep rcvd_data];
    (split; [lia|]); (split; [|auto]); intros m Hm; try discriminate Hm.
  injection Hm as <-. lia.
Qed.

Lemma r_exec_inv (P : rctl -> Prop) :
  (forall s a, P s -> P (fst (on_new_rcvd s a))) -> forall amounts s, P s -> P (fst (r_exec s amounts)).
Proof.
  intros HP. induction amounts as [|a rest IH]; intros s H; cbn [r_exec]; [exact H|].
  specialize (HP s a H). destruct (on_new_rcvd s a) as [s1 r]. specialize (IH s1 HP).
  destruct (r_exec s1 rest) as [s2 rs]. exact IH.
Qed.

(* the advertised limit stays within one initial window of what has arrived: it is raised, by one
   step, only when it is within a step of the data received, and two steps are at most the window.
   So the VarInt `expect` in on_new_rcvd cannot fire while rcvd + initial stays below 2^62 *)
Lemma advertised_bound init amounts :
  let s := fst (r_exec (rctl_new init) amounts) in rmax_data s <= init + rcvd_data s.
Proof.
  intro s.
  refine (proj1 (r_exec_inv (fun s => rmax_data s <= init + rcvd_data s /\ 2 * rstep s <= init)
                            _ amounts (rctl_new init) _)).
  - intros s1 a [H Hs]. unfold on_new_rcvd.
    destruct (N.leb_spec (rcvd_data s1 + a) (rmax_data s1));
      [destruct (N.leb_spec (rmax_data s1) (rcvd_data s1 + a + rstep s1)); [destruct (VARINT_MAX <? _)|]|];
      cbn [fst rmax_data rcvd_data rstep]; (split; [lia|exact Hs]).
  - unfold rctl_new; cbn [rmax_data rcvd_data rstep]. split; [lia|apply N.mul_div_le; discriminate].
Qed.

