(* Proofs about Model/RecvBuf.v (property C08).
   The segment list stays sorted, disjoint and made of slices of the content ([wf]); all the rest is
   said about the set of offsets it covers.  [ins] adds exactly the interval of its data ([ins_post]),
   a read moves [nread] over covered offsets and leaves the set alone, so in a state reached from the
   empty buffer the covered offsets are those that arrived ([reach_spec]). *)
From Coq Require Import List NArith Lia.
From GQ Require Import Lib.Base Lib.Slice Model.RecvBuf.
Import ListNotations.
Local Open Scope N_scope.

Definition in_seg (s : seg) (i : N) : Prop := s_off s <= i < s_end s.
Definition covers (ss : list seg) (i : N) : Prop := exists s, In s ss /\ in_seg s i.

Fixpoint wf (c : N -> Z) (lo : N) (ss : list seg) : Prop :=
  match ss with
  | [] => True
  | s :: r => lo <= s_off s /\ 0 < s_len s /\ is_slice c (s_off s) (s_data s) /\ wf c (s_end s) r
  end.

Lemma covers_nil i : covers [] i <-> False.
Proof. split; [intros [s [[] _]]|intros []]. Qed.

Lemma covers_cons s r i : covers (s :: r) i <-> in_seg s i \/ covers r i.
Proof.
  unfold covers; split.
  - intros [s' [[E|Hin] Hi]]; [subst; now left|right; eauto].
  - intros [Hi|[s' [Hin Hi]]]; [exists s; split; [now left|exact Hi]|exists s'; split; [now right|exact Hi]].
Qed.

Lemma in_seg_mk a d i : in_seg (mkseg a d) i <-> a <= i < a + lenN d.
Proof. reflexivity. Qed.

Lemma s_end_eq s : s_end s = s_off s + s_len s.
Proof. reflexivity. Qed.

Lemma wf_mk c lo a d r :
  wf c lo (mkseg a d :: r) <-> lo <= a /\ 0 < lenN d /\ is_slice c a d /\ wf c (a + lenN d) r.
Proof. reflexivity. Qed.

(* taking the first segment whole: the prefix grows to its end *)
Lemma covers_first s r i : i < s_end s \/ covers r i <-> i < s_off s \/ covers (s :: r) i.
Proof.
  rewrite covers_cons, <- or_assoc. apply or_iff_compat_r.
  unfold in_seg. pose proof (s_end_eq s). lia.
Qed.

Lemma wf_weaken c lo lo' ss : lo' <= lo -> wf c lo ss -> wf c lo' ss.
Proof. destruct ss as [|s r]; cbn [wf]; [trivial|]. intros H (H1 & H2 & H3 & H4). repeat split; try assumption; lia. Qed.

Lemma wf_In c ss s : forall lo, wf c lo ss -> In s ss -> lo <= s_off s /\ 0 < s_len s.
Proof.
  induction ss as [|a r IH]; intros lo Hwf Hin; [destruct Hin|].
  destruct Hwf as (W1 & W2 & _ & W4). destruct Hin as [<-|Hin]; [now split|].
  destruct (IH _ W4 Hin) as [H1 H2]. pose proof (s_end_eq a). split; [lia|exact H2].
Qed.

Lemma wf_covers_ge c lo ss i : wf c lo ss -> covers ss i -> lo <= i.
Proof.
  intros Hwf (s & Hin & Hi). apply (wf_In _ _ _ _ Hwf) in Hin. unfold in_seg in Hi. lia.
Qed.

Lemma ins_nil_data ss start : ins ss start [] = (ss, 0).
Proof. destruct ss; reflexivity. Qed.

Lemma ins_nil_ss start data : data <> [] -> ins [] start data = ([mkseg start data], start + lenN data).
Proof. destruct data; [congruence|reflexivity]. Qed.

(* [s] stays: what it covers of the data [d] located at [p] is dropped, the rest goes behind it.
   When [s] ends at or before [p] the subtraction gives 0 and nothing is dropped. *)
Definition skip (s : seg) (rest : list seg) (p : N) (d : list Z) : list seg * N :=
  let cov := N.min (lenN d) (s_end s - p) in
  let '(rest', m) := ins rest (p + cov) (dropN cov d) in (s :: rest', m).

Lemma ins_cons s rest start data : data <> [] ->
  ins (s :: rest) start data =
    if start + lenN data <=? s_off s then (mkseg start data :: s :: rest, start + lenN data)
    else if start <? s_off s then
      let gap := s_off s - start in
      let '(l, m) := skip s rest (s_off s) (dropN gap data) in
      (mkseg start (takeN gap data) :: l, N.max (s_off s) m)
    else skip s rest start data.
Proof.
  intro H. destruct data; [congruence|]. cbn [ins].
  destruct (_ <=? s_off s); [reflexivity|]. destruct (start <? s_off s); unfold skip.
  - replace (s_end s - s_off s) with (s_len s) by (unfold s_end; lia).
    destruct (ins rest _ _). reflexivity.
  - destruct (N.leb_spec (s_end s) start) as [H3|H3]; [|reflexivity].
    rewrite (proj2 (N.sub_0_le _ _) H3), N.min_0_r, N.add_0_r. reflexivity.
Qed.

(* [m] is 0 when no segment was created, otherwise the end of the last one created, which is [e]
   unless the byte [e - 1] was there before *)
Definition ins_post (c : N -> Z) (lo : N) (ss : list seg) (start e : N) (ss' : list seg) (m : N) : Prop :=
  wf c lo ss' /\
  (forall i, covers ss' i <-> start <= i < e \/ covers ss i) /\
  (m = 0 \/ start < m <= e) /\
  (start < e -> m < e -> covers ss (e - 1)).

Lemma ins_post_nil c lo ss start : wf c lo ss -> ins_post c lo ss start start ss 0.
Proof.
  intro Hwf. split; [exact Hwf|]. split; [|split; [now left|lia]].
  intro i. split; [now right|intros [H|H]; [lia|exact H]].
Qed.

Lemma ins_post_head c lo ss start k so e ss1 m m' :
  lo <= start -> 0 < k -> so = start + k -> so <= e ->
  ins_post c so ss so e ss1 m -> m' = N.max so m ->
  ins_post c lo ss start e (mkseg start (slice c start k) :: ss1) m'.
Proof.
  intros Hlo Hk -> Hso (R1 & R2 & R3 & R4) ->. split; [|split; [|split]].
  - apply wf_mk. rewrite lenN_slice. auto using is_slice_slice.
  - intro i. rewrite covers_cons, R2, in_seg_mk, lenN_slice, <- or_assoc. apply or_iff_compat_r. lia.
  - lia.
  - intros _ Hm. apply R4; lia.
Qed.

Lemma ins_post_keep c lo s rest p a e rest' m :
  wf c lo (s :: rest) -> p <= a -> (p < a -> s_off s <= p /\ a <= s_end s) ->
  ins_post c (s_end s) rest a e rest' m ->
  ins_post c lo (s :: rest) p e (s :: rest') m.
Proof.
  intros (W1 & W2 & W3 & W4) Hpa Hin (R1 & R2 & R3 & R4). split; [|split; [|split]].
  - cbn [wf]. auto.
  - intro i. rewrite !covers_cons, R2, <- !or_assoc. apply or_iff_compat_r. unfold in_seg. lia.
  - lia.
  - intros Hpe Hm. rewrite covers_cons.
    destruct (N.lt_ge_cases a e) as [Hae|Hae]; [right; now apply R4 | left; unfold in_seg; lia].
Qed.

Lemma ins_post_whole c lo ss start n :
  lo <= start -> 0 < n -> wf c (start + n) ss ->
  ins_post c lo ss start (start + n) (mkseg start (slice c start n) :: ss) (start + n).
Proof.
  intros. eapply ins_post_head; [eassumption | eassumption | reflexivity.. | now apply ins_post_nil | lia].
Qed.

(* the data of [recv] being a slice of the content, so is every piece [ins] cuts from it *)
Lemma ins_spec c ss : forall lo start n ss' m,
  wf c lo ss -> (0 < n -> lo <= start) -> ins ss start (slice c start n) = (ss', m) ->
  ins_post c lo ss start (start + n) ss' m.
Proof.
  induction ss as [|s rest IH]; intros lo start n ss' m Hwf Hlo Hins.
  all: destruct (N.eq_0_gt_0_cases n) as [->|Hn].
  1, 3: rewrite ins_nil_data in Hins; injection Hins as <- <-; rewrite N.add_0_r; now apply ins_post_nil.
  all: specialize (Hlo Hn); assert (Hne : slice c start n <> []) by (apply lenN_pos; now rewrite lenN_slice).
  - rewrite ins_nil_ss, lenN_slice in Hins by exact Hne. injection Hins as <- <-.
    now apply ins_post_whole.
  - rewrite ins_cons, lenN_slice in Hins by exact Hne.
    pose proof Hwf as (W1 & W2 & W3 & W4).
    assert (Hskip : forall lo p k l m', lo <= s_off s -> s_off s <= p ->
              skip s rest p (slice c p k) = (l, m') -> ins_post c lo (s :: rest) p (p + k) l m').
    { intros lo' p k l m' L1 L2 Esk. unfold skip in Esk. rewrite lenN_slice in Esk.
      set (cov := N.min k (s_end s - p)) in Esk. rewrite dropN_slice in Esk by apply N.le_min_l.
      destruct (ins rest _ _) as [rest' m''] eqn:Erec in Esk. injection Esk as <- <-.
      apply ins_post_keep with (a := p + cov); [cbn [wf]; auto | lia | lia |].
      replace (p + k) with (p + cov + (k - cov)) by lia.
      apply IH; [exact W4 | lia | exact Erec]. }
    destruct (N.leb_spec (start + n) (s_off s)) as [C1|C1].
    { injection Hins as <- <-. apply ins_post_whole; [assumption.. | cbn [wf]; auto]. }
    destruct (N.ltb_spec start (s_off s)) as [C2|C2]; [|now apply Hskip].
    (* the head [start, s_off s) becomes a segment, the rest starts at [s] *)
    cbv zeta in Hins. set (gap := s_off s - start) in Hins.
    rewrite takeN_slice, dropN_slice in Hins by lia.
    replace (start + gap) with (s_off s) in Hins by lia.
    destruct (skip s rest _ _) as [l m'] eqn:Esk in Hins. injection Hins as <- <-.
    apply Hskip with (lo := s_off s) in Esk; [| lia | lia].
    replace (s_off s + (n - gap)) with (start + n) in Esk by lia.
    apply ins_post_head with (so := s_off s) (m := m'); [assumption | lia | lia | lia | exact Esk | reflexivity].
Qed.

Definition Inv (c : N -> Z) (b : rcvbuf) : Prop :=
  wf c (nread b) (segs b) /\ nread b <= largest b /\
  (forall s, In s (segs b) -> s_end s <= largest b).

Definition covered (b : rcvbuf) (i : N) : Prop := i < nread b \/ covers (segs b) i.

Lemma Inv_empty c : Inv c empty_buf.
Proof. unfold Inv, empty_buf; cbn [nread largest segs wf]. split; [exact I|]. split; [lia|intros s []]. Qed.

Lemma Inv_covered_lt c b i : Inv c b -> covered b i -> i < largest b.
Proof.
  intros (H1 & H2 & H3) [H|[s [Hin Hi]]]; [lia|].
  specialize (H3 _ Hin). unfold in_seg in Hi. lia.
Qed.

(* conversely: the segments being non-empty, the two bounds of Inv say that nothing at or beyond
   [largest] is covered *)
Lemma Inv_intro c b :
  wf c (nread b) (segs b) -> (forall i, covered b i -> i < largest b) -> Inv c b.
Proof.
  intros Hwf H. split; [exact Hwf|]. split.
  - destruct (N.eq_0_gt_0_cases (nread b)); [lia|].
    assert (nread b - 1 < largest b) by (apply H; left; lia). lia.
  - intros s Hin. pose proof (proj2 (wf_In _ _ _ _ Hwf Hin)). pose proof (s_end_eq s).
    assert (s_end s - 1 < largest b); [|lia].
    apply H. right. exists s. split; [exact Hin|]. unfold in_seg. lia.
Qed.

(* what [recv] keeps of a fragment [off, off + len) when everything below [lo] has been read *)
Lemma trim_slice c off len lo :
  dropN (N.min len (N.max off lo - off)) (slice c off len) =
  slice c (N.max off lo) (off + len - N.max off lo).
Proof.
  rewrite dropN_slice by apply N.le_min_l.
  destruct (N.le_gt_cases len (N.max off lo - off)) as [H|H].
  - rewrite N.min_l, N.sub_diag by exact H. replace (off + len - N.max off lo) with 0 by lia. reflexivity.
  - rewrite N.min_r by lia. f_equal; lia.
Qed.

Lemma recv_spec c b off len b' r :
  Inv c b -> recv b off (slice c off len) = (b', r) ->
  Inv c b' /\ nread b' = nread b /\
  (forall i, covered b' i <-> covered b i \/ off <= i < off + len) /\
  largest b' = (if len =? 0 then largest b else N.max (largest b) (off + len)) /\
  r = largest b' - largest b.
Proof.
  intros HI Hr. pose proof HI as (I1 & I2 & _).
  unfold recv in Hr. rewrite lenN_slice, trim_slice in Hr.
  remember (N.max off (nread b)) as start eqn:Hs. remember (off + len - start) as n eqn:Hn.
  destruct (ins (segs b) start (slice c start n)) as [ss m] eqn:Eins.
  injection Hr as <- <-. cbn [nread largest segs].
  apply ins_spec with (lo := nread b) in Eins; [| exact I1 | lia].
  destruct Eins as (R1 & R2 & R3 & R4).
  assert (Hcov : forall i, i < nread b \/ covers ss i <-> covered b i \/ off <= i < off + len).
  { intro i. rewrite R2, (or_comm (covered b i)). unfold covered. rewrite <- !or_assoc.
    apply or_iff_compat_r. clear - Hs Hn. lia. }
  assert (Hlarge : N.max (largest b) m = if len =? 0 then largest b else N.max (largest b) (off + len)).
  { destruct (N.eqb_spec len 0) as [E|NE]; [replace m with 0 by lia; apply N.max_0_r|].
    destruct (N.lt_ge_cases start (off + len)) as [Hlt|Hge].
    - replace (start + n) with (off + len) in * by lia.
      destruct (N.lt_ge_cases m (off + len)) as [Hm|Hm]; [|f_equal; lia].
      (* the last byte was there before: [largest] is beyond it already *)
      assert (off + len - 1 < largest b) by (apply (Inv_covered_lt c b _ HI); right; now apply R4).
      rewrite !N.max_l by lia. reflexivity.
    - (* the fragment lies below [nread] *)
      replace m with 0 by lia. rewrite N.max_0_r, N.max_l by lia. reflexivity. }
  split; [|split; [reflexivity|split; [exact Hcov|split; [exact Hlarge|reflexivity]]]].
  apply Inv_intro; [exact R1|]. unfold covered; cbn [nread largest segs].
  intros i Hi. apply Hcov in Hi. rewrite Hlarge. clear - HI Hi. destruct Hi as [Hi|Hi].
  - apply (Inv_covered_lt c b i HI) in Hi. destruct (len =? 0); lia.
  - destruct (N.eqb_spec len 0); lia.
Qed.

Lemma contig_spec c ss : forall pos, wf c pos ss ->
  pos <= contig_end ss pos /\
  (forall i, pos <= i < contig_end ss pos -> covers ss i) /\
  ~ covers ss (contig_end ss pos).
Proof.
  induction ss as [|s r IH]; intros pos Hwf; cbn [contig_end].
  - split; [lia|]. split; [intros; lia|now rewrite covers_nil].
  - destruct Hwf as (W1 & W2 & W3 & W4). pose proof (s_end_eq s) as Es.
    destruct (N.eqb_spec (s_off s) pos) as [E|NE].
    + destruct (IH _ W4) as (A1 & A2 & A3). split; [lia|]. split.
      * intros i Hi. apply covers_cons.
        destruct (N.lt_ge_cases i (s_end s)); [left; unfold in_seg; lia|right; apply A2; lia].
      * rewrite covers_cons. unfold in_seg. intros [H|H]; [lia|contradiction].
    + split; [lia|]. split; [intros; lia|].
      rewrite covers_cons. unfold in_seg. intros [H|H]; [lia|].
      pose proof (wf_covers_ge _ _ _ _ W4 H). lia.
Qed.

Lemma read_loop_spec c ss : forall pos room ss' pos' out,
  wf c pos ss -> read_loop ss pos room = (ss', pos', out) ->
  let k := N.min room (contig_end ss pos - pos) in
  pos' = pos + k /\ out = slice c pos k /\ wf c pos' ss' /\
  (forall i, i < pos' \/ covers ss' i <-> i < pos \/ covers ss i).
Proof.
  induction ss as [|s r IH]; intros pos room ss' pos' out Hwf Hrl; cbn [read_loop contig_end] in *.
  - injection Hrl as <- <- <-. rewrite N.sub_diag, N.min_0_r, N.add_0_r. now split; [|split; [|split]].
  - pose proof Hwf as (W1 & W2 & W3 & W4). pose proof (s_end_eq s) as Es.
    destruct (N.eqb_spec (s_off s) pos) as [E|NE]; cbn [negb orb] in Hrl.
    2:{ injection Hrl as <- <- <-. rewrite N.sub_diag, N.min_0_r, N.add_0_r. now split; [|split; [|split]]. }
    destruct (contig_spec c r _ W4) as (A1 & _ & _).
    destruct (N.eqb_spec room 0) as [->|RNZ].
    { injection Hrl as <- <- <-. rewrite N.min_0_l, N.add_0_r. now split; [|split; [|split]]. }
    destruct (N.lt_ge_cases room (s_len s)) as [Hroom|Hroom].
    + (* the destination is full inside [s] *)
      rewrite N.min_l, (proj2 (N.ltb_lt _ _) Hroom) in Hrl by lia. injection Hrl as <- <- <-.
      rewrite (N.min_l room) by lia.
      split; [reflexivity|]. split; [|split].
      * rewrite <- E, W3. apply takeN_slice. exact (N.lt_le_incl _ _ Hroom).
      * apply wf_mk. rewrite lenN_dropN. change (lenN (s_data s)) with (s_len s).
        replace (s_off s + room + (s_len s - room)) with (s_end s) by lia.
        repeat split; [lia | lia | | exact W4].
        apply is_slice_drop; [exact (N.lt_le_incl _ _ Hroom)|exact W3].
      * intro i. rewrite !covers_cons, in_seg_mk, lenN_dropN, <- !or_assoc. apply or_iff_compat_r.
        change (lenN (s_data s)) with (s_len s). unfold in_seg. lia.
    + rewrite N.min_r, N.ltb_irrefl in Hrl by exact Hroom.
      destruct (read_loop r (pos + s_len s) (room - s_len s)) as [[ss1 pos1] out1] eqn:Erec.
      injection Hrl as <- <- <-.
      replace (pos + s_len s) with (s_end s) in Erec by lia.
      apply IH in Erec; [|assumption]. destruct Erec as (-> & -> & B3 & B4).
      (* [s] whole, then what the rest gives *)
      replace (N.min room (contig_end r (s_end s) - pos))
        with (s_len s + N.min (room - s_len s) (contig_end r (s_end s) - s_end s))
        by (rewrite <- N.add_min_distr_l; f_equal; lia).
      split; [lia|]. split; [|split; [exact B3|]].
      * rewrite slice_app, <- E, <- Es. f_equal. exact W3.
      * intro i. rewrite B4, <- E. apply covers_first.
Qed.

Lemma available_spec c b : Inv c b ->
  (forall i, nread b <= i < nread b + available b -> covered b i) /\
  ~ covered b (nread b + available b).
Proof.
  intros (I1 & I2 & I3). destruct (contig_spec c _ _ I1) as (A1 & A2 & A3).
  unfold available, covered. split.
  - intros i Hi. right. apply A2. lia.
  - replace (nread b + (contig_end (segs b) (nread b) - nread b)) with (contig_end (segs b) (nread b)) by lia.
    intros [H|H]; [lia|contradiction].
Qed.

Lemma frontier_unique c b a : Inv c b ->
  nread b <= a -> (forall i, nread b <= i < a -> covered b i) -> ~ covered b a -> nread b + available b = a.
Proof.
  intros HI Ha H1 H2. destruct (available_spec c b HI) as (A1 & A2).
  destruct (N.lt_trichotomy (nread b + available b) a) as [H|[H|H]]; [|exact H|]; exfalso.
  - apply A2. apply H1. lia.
  - apply H2. apply A1. lia.
Qed.

Lemma is_readable_avail c b : Inv c b -> is_readable b = (0 <? available b).
Proof.
  intros (Hwf & _). unfold is_readable, available. revert Hwf.
  destruct (segs b) as [|s r]; cbn [contig_end wf]; [intros; now rewrite N.sub_diag|].
  intros (W1 & W2 & _ & W4). pose proof (s_end_eq s). destruct (contig_spec c r _ W4) as (A1 & _).
  destruct (N.eqb_spec (s_off s) (nread b)); symmetry; [apply N.ltb_lt; lia|rewrite N.sub_diag; reflexivity].
Qed.

Definition read_post (c : N -> Z) (b : rcvbuf) (k : N) (b' : rcvbuf) (out : list Z) : Prop :=
  Inv c b' /\ nread b' = nread b + k /\ out = slice c (nread b) k /\
  largest b' = largest b /\ (forall i, covered b' i <-> covered b i) /\
  nread b' + available b' = nread b + available b.

(* [Inv] and the frontier [nread + available] are matters of the covered set, which a read leaves alone
   while [nread] stays below the frontier *)
Lemma read_post_intro c b k ss :
  Inv c b -> k <= available b -> wf c (nread b + k) ss ->
  (forall i, i < nread b + k \/ covers ss i <-> covered b i) ->
  read_post c b k (mkbuf (nread b + k) (largest b) ss) (slice c (nread b) k).
Proof.
  intros HI Hk Hwf Hcov. destruct (available_spec c b HI) as (A1 & A2).
  assert (HI' : Inv c (mkbuf (nread b + k) (largest b) ss)).
  { apply Inv_intro; [exact Hwf|]. intros i Hi. exact (Inv_covered_lt c b i HI (proj1 (Hcov i) Hi)). }
  split; [exact HI'|]. do 3 (split; [reflexivity|]). split; [exact Hcov|].
  apply (frontier_unique c _ _ HI'); cbn [nread]; [lia | |intro H; exact (A2 (proj1 (Hcov _) H))].
  intros i Hi. apply Hcov, A1. lia.
Qed.

Lemma try_read_spec c b room b' out :
  Inv c b -> try_read b room = (b', out) -> read_post c b (N.min room (available b)) b' out.
Proof.
  intros HI Hr. unfold try_read in Hr.
  destruct (read_loop (segs b) (nread b) room) as [[ss pos] o] eqn:Erl. injection Hr as <- <-.
  destruct (read_loop_spec c _ _ _ _ _ _ (proj1 HI) Erl) as (-> & -> & R3 & R4).
  apply read_post_intro; [exact HI | apply N.le_min_r | exact R3 | exact R4].
Qed.

Lemma try_next_spec c b b' d :
  Inv c b -> try_next b = (b', d) ->
  match d with
  | None => b' = b /\ available b = 0
  | Some out => exists k, 0 < k <= available b /\ read_post c b k b' out
  end.
Proof.
  intros HI Hn. pose proof HI as (I1 & _). unfold try_next in Hn.
  assert (Ha : available b = contig_end (segs b) (nread b) - nread b) by reflexivity.
  destruct (segs b) as [|s r] eqn:Eb; cbn [contig_end] in Ha.
  { injection Hn as <- <-. split; [reflexivity|lia]. }
  destruct I1 as (W1 & W2 & W3 & W4).
  destruct (N.eqb_spec (s_off s) (nread b)) as [E|NE]; [|injection Hn as <- <-; split; [reflexivity|lia]].
  injection Hn as <- <-. exists (s_len s).
  destruct (contig_spec c r _ W4) as (A1 & _). pose proof (s_end_eq s) as Es.
  split; [lia|]. rewrite W3, E. change (lenN (s_data s)) with (s_len s).
  apply read_post_intro; [exact HI | lia | now rewrite <- E, <- Es |].
  intro i. unfold covered. rewrite Eb, <- E, <- Es. apply covers_first.
Qed.

Definition out_bytes (o : rb_out) : list Z :=
  match o with
  | ORead d => d
  | ONext (Some d) => d
  | _ => []
  end.
Definition bytes_of (outs : list rb_out) : list Z := concat (map out_bytes outs).

Definition out_fresh (o : rb_out) : N := match o with ORecv r => r | _ => 0 end.
Definition fresh_of (outs : list rb_out) : N := fold_right (fun o a => out_fresh o + a) 0 outs.

Definition arrived (ops : list rb_op) (i : N) : Prop :=
  exists off len, In (RbRecv off len) ops /\ off <= i < off + len.

Fixpoint max_end (ops : list rb_op) : N :=
  match ops with
  | [] => 0
  | RbRecv off len :: r => if len =? 0 then max_end r else N.max (off + len) (max_end r)
  | _ :: r => max_end r
  end.

Lemma arrived_nil i : arrived [] i <-> False.
Proof. split; [intros (o & l & [] & _)|intros []]. Qed.

Lemma arrived_cons o r i : arrived (o :: r) i <-> arrived [o] i \/ arrived r i.
Proof.
  unfold arrived; split.
  - intros (of & l & [E|Hin] & Hi); [left; exists of, l; split; [now left|exact Hi]|right; eauto].
  - intros [(of & l & [E|[]] & Hi)|(of & l & Hin & Hi)]; exists of, l; (split; [|exact Hi]); [now left|now right].
Qed.

Lemma arrived_one o i :
  arrived [o] i <-> match o with RbRecv off len => off <= i < off + len | _ => False end.
Proof.
  split.
  - intros (off & len & [->|[]] & Hi). exact Hi.
  - destruct o as [off len| |]; [|intros []..]. intro Hi. exists off, len. split; [now left|exact Hi].
Qed.

Lemma max_end_cons o r : max_end (o :: r) = N.max (max_end [o]) (max_end r).
Proof. destruct o as [off len| |]; cbn [max_end]; try lia. destruct (len =? 0); lia. Qed.

(* one operation, or a list of them, from any state with the invariant: the clauses of [reach_spec],
   relative to [b] *)
Definition step_post (c : N -> Z) (b : rcvbuf) (ops : list rb_op) (b' : rcvbuf) (bytes : list Z) (fresh : N) : Prop :=
  Inv c b' /\
  slice c 0 (nread b) ++ bytes = slice c 0 (nread b') /\
  (forall i, covered b' i <-> covered b i \/ arrived ops i) /\
  largest b' = N.max (largest b) (max_end ops) /\
  largest b + fresh = largest b'.

Lemma step_post_read c b o b' bytes k :
  match o with RbRecv _ _ => False | _ => True end ->
  read_post c b k b' bytes -> step_post c b [o] b' bytes 0.
Proof.
  intros Ho (HI & Hn & -> & Hl & Hcov & _). split; [exact HI|]. split; [rewrite Hn; symmetry; apply slice_app|].
  split; [|destruct o; [destruct Ho|..]; cbn [max_end]; lia].
  intro i. rewrite Hcov, arrived_one. destruct o; [destruct Ho|..]; tauto.
Qed.

Lemma exec_spec c b o b' out :
  Inv c b -> rb_exec c b o = (b', out) -> step_post c b [o] b' (out_bytes out) (out_fresh out).
Proof.
  intros HI He. destruct o as [off len|room|]; cbn [rb_exec] in He.
  - destruct (recv b off (slice c off len)) as [b1 r] eqn:Er. injection He as <- <-.
    destruct (recv_spec _ _ _ _ _ _ HI Er) as (S1 & S2 & S3 & S4 & S5).
    unfold step_post. cbn [out_bytes out_fresh max_end]. rewrite S2, app_nil_r.
    split; [assumption|]. split; [reflexivity|]. split; [intro i; now rewrite S3, arrived_one|].
    rewrite S5, S4. destruct (len =? 0); rewrite ?N.max_0_r; (split; [reflexivity|]).
    + now rewrite N.sub_diag, N.add_0_r.
    + rewrite N.add_comm. apply N.sub_add, N.le_max_l.
  - destruct (try_read b room) as [b1 d] eqn:Er. injection He as <- <-.
    exact (step_post_read c b (RbRead room) _ _ _ I (try_read_spec _ _ _ _ _ HI Er)).
  - destruct (try_next b) as [b1 d] eqn:En. injection He as <- <-.
    pose proof (try_next_spec _ _ _ _ HI En) as HS. destruct d as [d|].
    + destruct HS as (k & _ & HS). exact (step_post_read c b RbNext _ _ _ I HS).
    + destruct HS as (-> & _). apply step_post_read with (k := 0); [exact I|].
      split; [exact HI|]. rewrite N.add_0_r. now repeat split.
Qed.

Lemma execs_spec c ops : forall b b' outs,
  Inv c b -> rb_execs c b ops = (b', outs) -> step_post c b ops b' (bytes_of outs) (fresh_of outs).
Proof.
  induction ops as [|o r IH]; intros b b' outs HI He; cbn [rb_execs] in He; unfold step_post.
  - injection He as <- <-. cbn [bytes_of map concat fresh_of fold_right max_end].
    rewrite app_nil_r, N.add_0_r, N.max_0_r. split; [exact HI|]. split; [reflexivity|]. split; [|now split].
    intro i. rewrite arrived_nil. split; [now left | now intros [H|[]]].
  - destruct (rb_exec c b o) as [b1 out] eqn:E1.
    destruct (rb_execs c b1 r) as [b2 outs2] eqn:E2.
    injection He as <- <-.
    destruct (exec_spec _ _ _ _ _ HI E1) as (S1 & S2 & S3 & S4 & S5).
    destruct (IH _ _ _ S1 E2) as (T1 & T2 & T3 & T4 & T5).
    split; [exact T1|]. split; [|split; [|split]].
    + unfold bytes_of in *. cbn [map concat]. now rewrite app_assoc, S2.
    + intro i. rewrite T3, S3, (arrived_cons o r). apply or_assoc.
    + now rewrite T4, S4, (max_end_cons o r), N.max_assoc.
    + cbn [fresh_of fold_right]. fold (fresh_of outs2). now rewrite N.add_assoc, S5.
Qed.

Definition reach (c : N -> Z) (ops : list rb_op) (b : rcvbuf) (outs : list rb_out) : Prop :=
  rb_execs c empty_buf ops = (b, outs).

(* the contiguous prefix that has fully arrived: [a] is its length beyond [pos] *)
Definition contiguous_arrived (ops : list rb_op) (pos a : N) : Prop :=
  (forall i, pos <= i < pos + a -> arrived ops i \/ i < pos) /\ ~ arrived ops (pos + a).

Lemma reach_spec c ops b outs : reach c ops b outs ->
  Inv c b /\
  (* everything ever handed to the reader, concatenated, is the prefix [0, nread) of the content *)
  bytes_of outs = slice c 0 (nread b) /\
  (* nothing received is lost, nothing is invented *)
  (forall i, covered b i <-> arrived ops i) /\
  (* the newly-covered amounts reported by recv add up to the highest offset seen *)
  fresh_of outs = max_end ops /\ largest b = max_end ops.
Proof.
  intro H. destruct (execs_spec c ops _ _ _ (Inv_empty c) H) as (S1 & S2 & S3 & S4 & S5).
  cbn [nread largest empty_buf] in *. rewrite N.max_0_l in S4. rewrite N.add_0_l in S5.
  split; [exact S1|]. split; [exact S2|]. split; [|now rewrite S5].
  intro i. rewrite S3. split; [|now right].
  intros [[Hlt|Hc]|Ha]; [destruct (N.nlt_0_r i Hlt)|now apply covers_nil in Hc|exact Ha].
Qed.

Lemma reach_available c ops b outs : reach c ops b outs ->
  contiguous_arrived ops (nread b) (available b).
Proof.
  intro H. destruct (reach_spec c ops b outs H) as (HI & _ & Hcov & _).
  destruct (available_spec c b HI) as (A1 & A2). split.
  - intros i Hi. left. apply Hcov, A1, Hi.
  - intro Ha. apply A2, Hcov, Ha.
Qed.
