(* Lemmas about the NewReno model: window floor, no underflow, who may move the window. *)
From Coq Require Import List ZArith Bool Lia.
From GQ Require Import Model.NewReno.
Import ListNotations.
Local Open Scope Z_scope.

Ltac rcbn := cbn [mds cwnd ssthresh bif rstart ce r_sat r_panic fst snd negb andb orb].

Definition reno_ok (m : Z) (r : reno) : Prop :=
  mds r = m /\ 0 < m /\ 2 * m <= cwnd r /\ 0 <= bif r /\ r_panic r = false.

Definition sizes_ok (ps : list pkt) : Prop := Forall (fun p => 0 <= p_size p) ps.

Lemma reno_new_ok m : 0 < m -> reno_ok m (reno_new m).
Proof. intro H. unfold reno_ok, reno_new; rcbn. repeat split; lia. Qed.

Lemma bif_sat_sub_fields r n :
  mds (bif_sat_sub r n) = mds r /\ cwnd (bif_sat_sub r n) = cwnd r /\
  ssthresh (bif_sat_sub r n) = ssthresh r /\ rstart (bif_sat_sub r n) = rstart r /\
  ce (bif_sat_sub r n) = ce r /\ r_panic (bif_sat_sub r n) = r_panic r.
Proof. unfold bif_sat_sub, set_bif. destruct (bif r <? n); rcbn; repeat split. Qed.

Lemma bif_sat_sub_exact r n :
  n <= bif r -> bif (bif_sat_sub r n) = bif r - n /\ r_sat (bif_sat_sub r n) = r_sat r.
Proof.
  intro H. unfold bif_sat_sub, set_bif.
  destruct (bif r <? n) eqn:E; [apply Z.ltb_lt in E; lia|]. rcbn. split; [reflexivity|apply orb_false_r].
Qed.

Lemma reno_ok_bif_sat_sub m r n : reno_ok m r -> reno_ok m (bif_sat_sub r n).
Proof.
  intros (A & B & C & D & E). unfold reno_ok, bif_sat_sub, set_bif.
  destruct (bif r <? n) eqn:L; rcbn; repeat split; auto; [lia|apply Z.ltb_ge in L; lia].
Qed.

Lemma on_packet_acked_spec m r p :
  reno_ok m r -> 0 <= p_size p ->
  (if p_cc p && pstate_eqb (p_st p) Inflight then p_size p else 0) <= bif r ->
  let r' := on_packet_acked r p in
  reno_ok m r' /\ r_sat r' = r_sat r /\
  bif r' = bif r - (if p_cc p && pstate_eqb (p_st p) Inflight then p_size p else 0) /\
  rstart r' = rstart r /\ cwnd r <= cwnd r' /\
  (cwnd r < cwnd r' -> p_cc p = true /\ in_recovery r (p_time p) = false).
Proof.
  intros Hok Hs Hb. pose proof Hok as (A0 & B0 & C0 & D0 & E0). cbn zeta. unfold on_packet_acked.
  destruct (p_cc p); cbn [negb andb] in *; [|repeat split; auto; lia].
  set (n := if pstate_eqb (p_st p) Inflight then p_size p else 0) in *.
  set (r1 := if pstate_eqb (p_st p) Inflight then bif_sat_sub r (p_size p) else r).
  assert (H1 : reno_ok m r1 /\ r_sat r1 = r_sat r /\ bif r1 = bif r - n /\ rstart r1 = rstart r /\ cwnd r1 = cwnd r).
  { subst r1 n. destruct (pstate_eqb (p_st p) Inflight); [|repeat split; auto; lia].
    destruct (bif_sat_sub_exact r _ Hb) as (A & B).
    destruct (bif_sat_sub_fields r (p_size p)) as (_ & F2 & _ & F4 & _).
    split; [now apply reno_ok_bif_sat_sub|auto]. }
  clearbody r1 n. destruct H1 as ((A & B & C & D & E) & S & Bf & Rs & Cw).
  (* from here on the goal speaks of r1, the controller once the bytes have left *)
  unfold in_recovery. rewrite Rs, <- Cw, <- S, <- Bf.
  destruct (match rstart r with Some s => p_time p <=? s | None => false end);
    [repeat split; auto; lia|].
  assert (0 <= mds r1 * p_size p / cwnd r1) by (apply Z.div_pos; nia).
  assert (Hz : (cwnd r1 =? 0) = false) by (apply Z.eqb_neq; lia).
  destruct (below_ssthresh r1); unfold set_cwnd, reno_ok; rcbn; rewrite E, ?Hz;
    repeat split; auto; lia.
Qed.

Lemma congestion_event_in_recovery r t now : in_recovery r t = true -> on_congestion_event r t now = r.
Proof. intro H. unfold on_congestion_event. now rewrite H. Qed.

Lemma congestion_event_effect m r t now :
  reno_ok m r ->
  let r' := on_congestion_event r t now in
  reno_ok m r' /\ bif r' = bif r /\ r_sat r' = r_sat r /\
  ((cwnd r' = cwnd r /\ rstart r' = rstart r) \/
   (in_recovery r t = false /\ cwnd r' = Z.max (cwnd r - m) (2 * m) /\ rstart r' = Some now)).
Proof.
  intros H. pose proof H as (A & B & C & D & E). cbn zeta. unfold on_congestion_event.
  destruct (in_recovery r t); [split; [exact H|auto]|].
  assert (Hlt : (cwnd r <? mds r) = false) by (apply Z.ltb_ge; lia).
  unfold reno_ok. rewrite Hlt. rcbn. rewrite A, E.
  split; [repeat split; auto; lia|]. split; [reflexivity|]. split; [reflexivity|right; auto].
Qed.

Lemma congestion_event_once r t now t' now' :
  t' <= now -> in_recovery r t = false ->
  on_congestion_event (on_congestion_event r t now) t' now' = on_congestion_event r t now.
Proof.
  intros H1 H2. apply congestion_event_in_recovery.
  unfold on_congestion_event. rewrite H2. unfold in_recovery; rcbn. now apply Z.leb_le.
Qed.

Lemma process_ecn_spec m r cev t e now :
  reno_ok m r ->
  let r' := process_ecn r cev t e now in
  reno_ok m r' /\ bif r' = bif r /\ r_sat r' = r_sat r /\
  ((cwnd r' = cwnd r /\ rstart r' = rstart r) \/
   (in_recovery r t = false /\ cwnd r' = Z.max (cwnd r - m) (2 * m) /\ rstart r' = Some now)).
Proof.
  intro H. cbn zeta. unfold process_ecn.
  destruct cev as [c|]; [destruct (ce r e <? c)|]; try (split; [exact H|auto]).
  (* the event sees the controller with the new CE count: the same as far as this statement reads *)
  exact (congestion_event_effect m (mkreno _ _ _ _ _ (ce_set (ce r) e c) _ _) t now H).
Qed.

Lemma lost_loop_ok m r lost last :
  reno_ok m r ->
  let r1 := fst (lost_loop r lost last) in
  reno_ok m r1 /\ cwnd r1 = cwnd r /\ rstart r1 = rstart r.
Proof.
  revert r last. induction lost as [|p rest IH]; intros r last H; cbn [lost_loop fst]; [cbn zeta; auto|].
  destruct (p_cc p); [|now apply IH].
  destruct (bif_sat_sub_fields r (p_size p)) as (_ & F2 & _ & F4 & _).
  cbn zeta. rewrite <- F2, <- F4. apply IH. now apply reno_ok_bif_sat_sub.
Qed.

Lemma lost_loop_last r lost last t :
  snd (lost_loop r lost last) = Some t -> (exists p, In p lost /\ p_time p = t) \/ last = Some t.
Proof.
  revert r last. induction lost as [|p rest IH]; intros r last H; cbn [lost_loop snd] in H; [now right|].
  assert (Hp : exists q, In q (p :: rest) /\ p_time q = p_time p) by (exists p; split; [now left|reflexivity]).
  destruct (p_cc p).
  - (* a counted packet: the time passed on is its own, or the maximum of its own and [last] *)
    destruct (IH _ _ H) as [(q & Hq & E)|E]; [left; exists q; split; [now right|exact E]|].
    destruct last as [t1|]; injection E as <-; [|left; exact Hp].
    destruct (Z.max_spec t1 (p_time p)) as [(_ & ->)|(_ & ->)]; [left; exact Hp|now right].
  - destruct (IH _ _ H) as [(q & Hq & E)|E]; [left; exists q; split; [now right|exact E]|now right].
Qed.

Lemma on_packets_lost_single m r lost now :
  reno_ok m r ->
  let r' := on_packets_lost r lost false now in
  Z.max (cwnd r - m) (2 * m) <= cwnd r' /\
  ((forall s, rstart r = Some s -> forall p, In p lost -> p_time p <= s) -> rstart r <> None -> cwnd r' = cwnd r) /\
  (cwnd r' < cwnd r -> rstart r' = Some now).
Proof.
  intro H. cbn zeta. unfold on_packets_lost.
  pose proof (lost_loop_ok m r lost None H) as F.
  pose proof (lost_loop_last r lost None) as L.
  destruct (lost_loop r lost None) as (r1, last). cbn [fst snd] in L, F. cbn zeta in F.
  destruct F as (H1 & F2 & F4). destruct H as (A & B & C & D & E).
  destruct last as [t|]; [|rewrite F2; split; [lia|split; [auto|lia]]].
  destruct (congestion_event_effect m r1 t now H1) as (_ & _ & _ & [(X & _)|(X & Y & Z0)]).
  - rewrite X, F2. split; [lia|split; [auto|lia]].
  - rewrite Y, Z0, F2. split; [lia|split; [|auto]].
    intros Hall Hsome. exfalso. destruct (rstart r) as [s|] eqn:Es; [|congruence].
    destruct (L t eq_refl) as [(p & Hp & <-)|Et]; [|discriminate]. pose proof (Hall s eq_refl p Hp).
    unfold in_recovery in X. rewrite F4 in X. apply Z.leb_gt in X. lia.
Qed.

Lemma on_packets_lost_fields r lost pers now :
  mds (on_packets_lost r lost pers now) = mds r /\ r_panic (on_packets_lost r lost pers now) = r_panic r \/ True.
Proof. now right. Qed.

Fixpoint counted_sum (ps : list pkt) : Z :=
  match ps with
  | [] => 0
  | p :: rest => (if p_cc p then p_size p else 0) + counted_sum rest
  end.

Lemma counted_sum_nonneg ps : sizes_ok ps -> 0 <= counted_sum ps.
Proof. induction 1; cbn [counted_sum]; [lia|]. destruct (p_cc x); lia. Qed.

Lemma lost_loop_bif r lost last :
  sizes_ok lost -> counted_sum lost <= bif r ->
  bif (fst (lost_loop r lost last)) = bif r - counted_sum lost /\ r_sat (fst (lost_loop r lost last)) = r_sat r.
Proof.
  revert r last. induction lost as [|p rest IH]; intros r last Hf H; cbn [lost_loop counted_sum fst] in *; [split; [lia|reflexivity]|].
  inversion Hf; subst. pose proof (counted_sum_nonneg rest H3).
  destruct (p_cc p).
  - destruct (bif_sat_sub_exact r (p_size p)) as (A & B); [lia|].
    destruct (IH (bif_sat_sub r (p_size p))
                 (match last with Some t => Some (Z.max t (p_time p)) | None => Some (p_time p) end) H3) as (C & D); [lia|].
    rewrite C, D, A, B. split; [lia|reflexivity].
  - destruct (IH r last H3) as (C & D); [lia|]. rewrite C, D. split; [lia|reflexivity].
Qed.

Lemma on_packets_lost_spec m r lost pers now :
  reno_ok m r -> sizes_ok lost -> counted_sum lost <= bif r ->
  let r' := on_packets_lost r lost pers now in
  reno_ok m r' /\ r_sat r' = r_sat r /\ bif r' = bif r - counted_sum lost /\ cwnd r' <= cwnd r.
Proof.
  intros H Hf Hb. cbn zeta. unfold on_packets_lost.
  pose proof (lost_loop_ok m r lost None H) as F. pose proof (lost_loop_bif r lost None Hf Hb) as L.
  destruct (lost_loop r lost None) as (r1, last). cbn [fst] in F, L. cbn zeta in F.
  destruct F as (H1 & F2 & _). destruct L as (L1 & L2).
  set (r2 := match last with Some t => on_congestion_event r1 t now | None => r1 end).
  assert (H2 : reno_ok m r2 /\ r_sat r2 = r_sat r1 /\ bif r2 = bif r1 /\ cwnd r2 <= cwnd r1).
  { subst r2. destruct last as [t|]; [|split; [exact H1|repeat split; lia]].
    destruct (congestion_event_effect m r1 t now H1) as (Hok & G1 & G2 & [(E & _)|(_ & E & _)]);
      (split; [exact Hok|split; [exact G2|split; [exact G1|rewrite E]]]); [lia|].
    destruct H1 as (_ & ? & ? & _); lia. }
  clearbody r2. destruct H2 as (Hok & S & Bf & Cw). rewrite <- F2, <- L1, <- L2, <- S, <- Bf.
  destruct pers; [|split; [exact Hok|repeat split; lia]].
  destruct Hok as (A & B & C & D & E). unfold reno_ok; rcbn. rewrite A.
  assert (cwnd r2 / 2 <= cwnd r2) by (apply Z.div_le_upper_bound; lia).
  repeat split; auto; lia.
Qed.

Fixpoint discard_sum (ps : list pkt) : Z :=
  match ps with
  | [] => 0
  | p :: rest => (if p_cc p && negb (pstate_eqb (p_st p) Retx) then p_size p else 0) + discard_sum rest
  end.

Lemma discard_sum_nonneg ps : sizes_ok ps -> 0 <= discard_sum ps.
Proof. induction 1; cbn [discard_sum]; [lia|]. destruct (p_cc x && _); lia. Qed.

(* a discard never touches the window, even where the checked subtraction would panic *)
Lemma remove_from_bif_window r ps :
  mds (remove_from_bif r ps) = mds r /\ cwnd (remove_from_bif r ps) = cwnd r /\
  rstart (remove_from_bif r ps) = rstart r.
Proof.
  revert r. induction ps as [|p rest IH]; intro r; cbn [remove_from_bif]; [auto|].
  destruct (p_cc p && negb (pstate_eqb (p_st p) Retx)); [|apply IH].
  destruct (IH (bif_sub r (p_size p))) as (A & B & C). rewrite A, B, C.
  unfold bif_sub, set_bif. destruct (bif r <? p_size p); rcbn; auto.
Qed.

Lemma bif_sub_exact r n :
  n <= bif r ->
  bif (bif_sub r n) = bif r - n /\ r_sat (bif_sub r n) = r_sat r /\ r_panic (bif_sub r n) = r_panic r.
Proof.
  intro H. unfold bif_sub, set_bif.
  destruct (bif r <? n) eqn:E; [apply Z.ltb_lt in E; lia|]. rcbn. repeat split. apply orb_false_r.
Qed.

Lemma remove_from_bif_exact r ps :
  sizes_ok ps -> discard_sum ps <= bif r ->
  let r' := remove_from_bif r ps in
  bif r' = bif r - discard_sum ps /\ r_sat r' = r_sat r /\ r_panic r' = r_panic r.
Proof.
  revert r. induction ps as [|p rest IH]; intros r Hf H; cbn [remove_from_bif discard_sum] in *; cbn zeta; [repeat split; lia|].
  inversion Hf; subst. pose proof (discard_sum_nonneg rest H3).
  destruct (p_cc p && negb (pstate_eqb (p_st p) Retx)).
  - destruct (bif_sub_exact r (p_size p)) as (A & B & C); [lia|].
    destruct (IH (bif_sub r (p_size p)) H3) as (A' & B' & C'); [lia|].
    rewrite A', B', C', A, B, C. repeat split; lia.
  - destruct (IH r H3) as (A & B & C); [lia|]. rewrite A, B, C. repeat split; lia.
Qed.
