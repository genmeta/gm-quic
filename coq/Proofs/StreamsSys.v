(* Lifting of the per-flow theorems of Proofs/Streams.v to the two-endpoint system of
   Model/Streams.v: [sys_step] applies to a flow only operations that are [justified] by the
   frames of that same flow in the pool, hence every flow of a reachable system state is
   [flow_reach]able with the projection of the pool on its key. *)
From Coq Require Import List NArith Bool Lia.
From GQ Require Import Lib.Base Model.Streams Proofs.StreamCtl Proofs.Streams.
Import ListNotations.
Local Open Scope N_scope.

Notation alookup := StreamCtl.alookup.

Definition proj (key : N) (pool : list (N * fframe)) : list fframe :=
  map snd (filter (fun kf : N * fframe => fst kf =? key) pool).

Lemma proj_app key a b : proj key (a ++ b) = proj key a ++ proj key b.
Proof. unfold proj. now rewrite filter_app, map_app. Qed.

Lemma proj_tag key k fr : proj k (map (fun f => (key, f)) fr) = if key =? k then fr else [].
Proof.
  unfold proj. induction fr as [|f t IH]; cbn [map filter fst]; [now destruct (key =? k)|].
  destruct (key =? k); cbn [map snd]; [now rewrite IH|exact IH].
Qed.

Lemma in_proj key f pool : In f (proj key pool) <-> In (key, f) pool.
Proof.
  unfold proj. rewrite in_map_iff. split.
  - intros ([k f'] & Hq & Hf). apply filter_In in Hf. cbn [fst snd] in *. destruct Hf as [Hf Hk].
    apply N.eqb_eq in Hk. now subst.
  - intro H. exists (key, f). split; [reflexivity|]. apply filter_In. split; [exact H|apply N.eqb_refl].
Qed.

Definition SysInv (s : sys) : Prop :=
  forall key fl, alookup (sy_flows s) key = Some fl -> flow_reach (cof key) fl (proj key (sy_pool s)).

Definition same_fp (s s' : sys) : Prop :=
  sy_flows s' = sy_flows s /\ sy_pool s' = sy_pool s /\ sy_dirs s' = sy_dirs s.

Lemma same_fp_refl s : same_fp s s.
Proof. repeat split. Qed.
Lemma same_fp_closed s : same_fp s (set_closed s).
Proof. repeat split. Qed.
Lemma same_fp_cursor s side c : same_fp s (set_cursor s side c).
Proof. unfold set_cursor. destruct (side =? 0); repeat split. Qed.
Lemma same_fp_learn s j : same_fp s (learn s j).
Proof. unfold learn. destruct (nthN (sy_dirs s) j); [destruct (n =? 0)|]; repeat split. Qed.

Lemma pred_of_packet_pos cap sid tok : 1 <= tok -> pred_pos (pred_of_packet cap sid tok).
Proof.
  intros Ht o a. unfold pred_of_packet, StreamCtl.est_cap.
  destruct (cap <=? StreamCtl.frame_least sid o) eqn:E; [discriminate|].
  apply N.leb_gt in E. intro H. injection H as <-. lia.
Qed.

Lemma load_order_tokens rot cursor keys : Forall (fun st : N * N => 1 <= snd st) (load_order rot cursor keys).
Proof.
  assert (A : forall l, Forall (fun st : N * N => 1 <= snd st) (map (fun k => (k, StreamCtl.DEFAULT_TOKENS)) l)).
  { intro l. apply Forall_forall. intros x Hx. apply in_map_iff in Hx. destruct Hx as [k [<- _]]. cbn. unfold StreamCtl.DEFAULT_TOKENS. lia. }
  unfold load_order. destruct cursor as [[c tok]|]; [|apply A].
  destruct (N.eqb_spec tok 0) as [Z|NZ]; [destruct rot; apply A|].
  apply Forall_app. split; [|apply A]. destruct (existsb (N.eqb c) keys); constructor; [cbn; lia|constructor].
Qed.

Lemma on_flow_none s key o : on_flow s key o = None -> alookup (sy_flows s) key = None.
Proof.
  unfold on_flow. destruct (alookup (sy_flows s) key); [|reflexivity].
  destruct (flow_step _ _ _) as [[a b] c]. discriminate.
Qed.

Lemma on_flow_some s key o s' fr out : on_flow s key o = Some (s', fr, out) ->
  exists fl fl', alookup (sy_flows s) key = Some fl /\ flow_step (cof key) fl o = (fl', fr, out) /\
    s' = set_pool (set_flows s (StreamCtl.aupdate (sy_flows s) key fl')) (sy_pool s ++ map (fun f => (key, f)) fr) /\
    forall k, alookup (sy_flows s') k = (if key =? k then Some fl' else alookup (sy_flows s) k) /\
              proj k (sy_pool s') = proj k (sy_pool s) ++ (if key =? k then fr else []).
Proof.
  unfold on_flow. destruct (alookup (sy_flows s) key) as [fl|] eqn:El; [|discriminate].
  destruct (flow_step (cof key) fl o) as [[fl' fr0] out0] eqn:Es. intro E. injection E as <- <- <-.
  exists fl, fl'. split; [reflexivity|]. split; [exact Es|]. split; [reflexivity|]. intro k. cbn [sy_flows sy_pool set_pool set_flows].
  rewrite alookup_aupdate, El, proj_app, proj_tag. split; reflexivity.
Qed.

(* [try_streams] by outcome, along any preorder [R] that contains the attempts; [s1] is the state reached when
   the stream's turn came *)
Section TryStreams.
  Variables (skeys : list (N * N)) (cap credit : N) (P : N * N -> Prop) (R : sys -> sys -> Prop).
  Hypothesis R_refl : forall s, R s s.
  Hypothesis R_trans : forall a b c, R a b -> R b c -> R a c.
  Hypothesis R_try : forall s sid tok key s1 fr out, P (sid, tok) ->
    on_flow s key (FTry (pred_of_packet cap sid tok) credit) = Some (s1, fr, out) -> R s s1.

  Lemma try_streams_out : forall order s s' r,
    Forall P order -> try_streams s skeys order cap credit = (s', r) ->
    R s s' /\
    (r = None -> forall sid tok key, In (sid, tok) order -> alookup skeys sid = Some key ->
       exists s1, R s s1 /\
         (alookup (sy_flows s1) key = None \/
          exists s2 fr out, on_flow s1 key (FTry (pred_of_packet cap sid tok) credit) = Some (s2, fr, out) /\
            fo_pick out = None /\ R s2 s')).
  Proof.
    induction order as [|[sid0 tok0] rest IH]; intros s s' r Hf E; cbn [try_streams] in E.
    { injection E as <- _. split; [apply R_refl|]. intros _ sid tok key []. }
    inversion Hf as [|x l Hx Hl]; subst.
    destruct (alookup skeys sid0) as [key0|] eqn:Ek.
    destruct (on_flow s key0 (FTry (pred_of_packet cap sid0 tok0) credit)) as [[[s1 fr] out]|] eqn:Eo.
    destruct (fo_pick out) eqn:Ep.
    - injection E as <- <-. split; [eauto|discriminate].
    - pose proof (R_try _ _ _ _ _ _ _ Hx Eo) as H1. destruct (IH _ _ _ Hl E) as [A D].
      split; [eauto|]. intros Hr sid tok key [Hq|Hin] Hk.
      + injection Hq as <- <-. rewrite Ek in Hk. injection Hk as <-.
        exists s. split; [apply R_refl|]. right. exists s1, fr, out. auto.
      + destruct (D Hr _ _ _ Hin Hk) as (s2 & K & T). eauto.
    - destruct (IH _ _ _ Hl E) as [A D]. split; [exact A|]. intros Hr sid tok key [Hq|Hin] Hk; [|exact (D Hr _ _ _ Hin Hk)].
      injection Hq as <- <-. rewrite Ek in Hk. injection Hk as <-.
      exists s. split; [apply R_refl|]. left. exact (on_flow_none _ _ _ Eo).
    - destruct (IH _ _ _ Hl E) as [A D]. split; [exact A|]. intros Hr sid tok key [Hq|Hin] Hk; [|exact (D Hr _ _ _ Hin Hk)].
      injection Hq as <- <-. congruence.
  Qed.
End TryStreams.

(* Every step of the system is a chain of [same_fp] changes and of flow operations, each justified by the
   frames of its own flow in the pool: a relation that holds of these holds of every step. *)
Section SysStep.
  Variable R : sys -> sys -> Prop.
  Hypothesis R_refl : forall s, R s s.
  Hypothesis R_trans : forall a b c, R a b -> R b c -> R a c.
  Hypothesis R_same : forall s s', same_fp s s' -> R s s'.
  Hypothesis R_flow : forall s key o s' fr out,
    on_flow s key o = Some (s', fr, out) -> justified (proj key (sy_pool s)) o -> R s s'.

  (* the call may come after a [same_fp] change ([s1]): a delivery first tells the server of the stream *)
  Lemma app_call_R s s1 key o extra :
    same_fp s s1 -> justified (proj key (sy_pool s)) o -> R s (fst (app_call s1 key o extra)).
  Proof.
    intros L Hj. apply (R_trans _ _ _ (R_same _ _ L)). rewrite <- (proj1 (proj2 L)) in Hj. unfold app_call.
    destruct (on_flow s1 key o) as [[[s2 fr] out]|] eqn:Eo; cbn [fst]; [|apply R_refl].
    pose proof (R_flow _ _ _ _ _ _ Eo Hj) as H1.
    destruct (fo_err out); [exact (R_trans _ _ _ H1 (R_same _ _ (same_fp_closed s2)))|exact H1].
  Qed.

  Lemma emit_R s side cap flowlim : R s (fst (emit s side cap flowlim)).
  Proof.
    unfold emit. destruct (cap <? StreamCtl.STREAM_FRAME_MAX); [apply R_refl|].
    destruct (try_streams _ _ _ _ _) as [s1 r] eqn:Et.
    assert (H1 : R s s1).
    { refine (proj1 (try_streams_out _ _ _ _ R R_refl R_trans _ _ _ _ _ (load_order_tokens _ _ _) Et)).
      intros s0 sid tok key s2 fr out Ht Eo. exact (R_flow _ _ _ _ _ _ Eo (pred_of_packet_pos cap sid tok Ht)). }
    destruct r as [[[[key sid] tok] p]|]; [exact (R_trans _ _ _ H1 (R_same _ _ (same_fp_cursor s1 side _)))|exact H1].
  Qed.

  Lemma sys_step_R s o : R s (fst (sys_step s o)).
  Proof.
    unfold sys_step. destruct (sy_closed s); [apply R_refl|].
    (* a call of the application on a stream it holds, or the refusal *)
    assert (App : forall (g : bool) key fo extra a b c d, justified (proj key (sy_pool s)) fo ->
              R s (fst (if g then app_call s key fo extra else missing s a b c d))).
    { intros [|] key fo extra a b c d Hj; [exact (app_call_R _ _ _ _ _ (same_fp_refl s) Hj)|apply R_refl]. }
    destruct o as [side j n|side j|side j|side j n|side j err|side j err|side cap fl|i|i|i].
    1-6: apply App; exact I.
    { destruct (side <? 2); [|apply R_refl]. pose proof (emit_R s side cap fl) as H1.
      destruct (emit s side cap fl) as [s1 [[[key sid] p]|]]; exact H1. }
    (* the adversary picks a frame of the pool: it is a frame of the flow it is filed under *)
    all: destruct (nthN (sy_pool s) i) as [[key f]|] eqn:En; [|apply R_refl].
    all: pose proof (proj2 (in_proj _ _ _) (nth_error_In _ _ En)) as Hin.
    { assert (L : forall b : bool, same_fp s (if b then learn s (key_stream key) else s))
        by (intros [|]; [apply same_fp_learn|apply same_fp_refl]).
      destruct f as [off len fin d|err final|err];
        refine (app_call_R _ _ _ _ _ (L _) _); cbn [justified]; eauto. }
    all: destruct f as [off len fin d|err final|err]; try apply R_refl;
      apply (app_call_R _ _ _ _ _ (same_fp_refl s)); cbn [justified]; eauto.
  Qed.

  Lemma sys_exec_R ops : forall s, R s (sys_exec s ops).
  Proof.
    induction ops as [|o rest IH]; intro s; cbn [sys_exec]; [apply R_refl|].
    exact (R_trans _ _ _ (sys_step_R s o) (IH _)).
  Qed.
End SysStep.

Lemma on_flow_inv s key o s' fr out :
  on_flow s key o = Some (s', fr, out) -> justified (proj key (sy_pool s)) o -> SysInv s -> SysInv s'.
Proof.
  intros E Hj HI k fl2. destruct (on_flow_some _ _ _ _ _ _ E) as (fl & fl' & El & Es & _ & At).
  destruct (At k) as [-> ->]. destruct (N.eqb_spec key k) as [<-|NE].
  - intro Hq. injection Hq as <-. eapply fr_step; [apply HI; exact El|exact Hj|exact Es].
  - rewrite app_nil_r. apply HI.
Qed.

Lemma SysInv_same s s' : same_fp s s' -> SysInv s -> SysInv s'.
Proof. intros (E1 & E2 & _) H key fl. rewrite E1, E2. apply H. Qed.

Lemma sys_exec_inv ops s : SysInv s -> SysInv (sys_exec s ops).
Proof.
  apply (sys_exec_R (fun s s' => SysInv s -> SysInv s')); [auto|auto|exact SysInv_same|exact on_flow_inv].
Qed.

Definition PK (s : sys) : Prop := forall k f, In (k, f) (sy_pool s) -> In k (map fst (sy_flows s)).
Definition kinv (s s' : sys) : Prop :=
  map fst (sy_flows s') = map fst (sy_flows s) /\ sy_dirs s' = sy_dirs s /\ (PK s -> PK s').

Lemma kinv_refl s : kinv s s.
Proof. split; [reflexivity|split; [reflexivity|auto]]. Qed.
Lemma kinv_trans a b c : kinv a b -> kinv b c -> kinv a c.
Proof. intros (A1 & A2 & A3) (B1 & B2 & B3). split; [congruence|split; [congruence|auto]]. Qed.

Lemma kinv_same s s' : same_fp s s' -> kinv s s'.
Proof. intros (E1 & E2 & E3). unfold kinv, PK. rewrite E1, E2. auto. Qed.

Lemma kinv_keeps s s' key :
  kinv s s' -> (exists fl, alookup (sy_flows s) key = Some fl) -> exists fl, alookup (sy_flows s') key = Some fl.
Proof. intros K [fl Hf]. apply in_alookup. rewrite (proj1 K). exact (alookup_key _ _ _ Hf). Qed.

Lemma on_flow_kinv s key o s' fr out : on_flow s key o = Some (s', fr, out) -> kinv s s'.
Proof.
  intro E. destruct (on_flow_some _ _ _ _ _ _ E) as (fl & fl' & El & _ & -> & _).
  unfold kinv, PK. cbn [sy_flows sy_pool sy_dirs set_pool set_flows]. rewrite (map_aupdate_keep fst _ _ fl' _ El eq_refl).
  split; [reflexivity|]. split; [reflexivity|].
  intros HP k f Hin. apply in_app_or in Hin. destruct Hin as [Hin|Hin]; [eauto|].
  apply in_map_iff in Hin. destruct Hin as (f0 & Hq & _). injection Hq as <- _. eapply alookup_key; eauto.
Qed.

Lemma sys_exec_kinv ops s : kinv s (sys_exec s ops).
Proof.
  apply (sys_exec_R kinv kinv_refl kinv_trans kinv_same). intros s0 key o s' fr out E _. exact (on_flow_kinv _ _ _ _ _ _ E).
Qed.

Lemma init_flows_new w dirs : forall j key fl, alookup (init_flows w dirs j) key = Some fl -> fl = new_flow w.
Proof.
  induction dirs as [|d t IH]; intros j key fl; cbn [init_flows StreamCtl.alookup]; [discriminate|].
  destruct (2 * j =? key); [intro H; now injection H|].
  destruct (d =? 0); cbn [app StreamCtl.alookup].
  - destruct (2 * j + 1 =? key); [intro H; now injection H|apply IH].
  - apply IH.
Qed.

Lemma SysInv_init rot w dirs : SysInv (sys_init rot w dirs).
Proof.
  intros key fl H. cbn [sys_init sy_flows sy_pool] in *. rewrite (init_flows_new _ _ _ _ _ H). apply fr_init.
Qed.

(* the cursor: whatever Output.cursor holds, one try_load_data_into_once offers the packet to every member of
   the output set, with at least one token *)
Lemma load_order_visits rot cursor keys k :
  In k keys -> exists tok, In (k, tok) (load_order rot cursor keys) /\ 1 <= tok.
Proof.
  intro Hin.
  assert (V : exists tok, In (k, tok) (load_order rot cursor keys)).
  { unfold load_order.
    (* a round is two filtered halves of the output set, each reversed *)
    assert (A : forall p q, p k || q k = true ->
              In (k, StreamCtl.DEFAULT_TOKENS)
                 (map (fun x => (x, StreamCtl.DEFAULT_TOKENS)) (rev (filter p keys) ++ rev (filter q keys)))).
    { intros p q H. apply (in_map (fun x => (x, StreamCtl.DEFAULT_TOKENS))). apply in_or_app. apply orb_true_iff in H.
      destruct H as [H|H]; [left|right]; apply -> in_rev; apply filter_In; split; assumption. }
    destruct cursor as [[c tok]|].
    2:{ eexists. apply (in_map (fun x => (x, StreamCtl.DEFAULT_TOKENS))). apply -> in_rev. exact Hin. }
    destruct (N.eqb_spec tok 0) as [Z|NZ].
    - eexists. destruct rot; apply A; [rewrite N.leb_antisym|rewrite N.ltb_antisym]; apply orb_negb_r.
    - destruct (N.eqb_spec k c) as [->|NE].
      + exists tok. apply in_or_app. left.
        rewrite (proj2 (existsb_exists _ _)); [now left|]. exists c. split; [exact Hin|apply N.eqb_refl].
      + eexists. apply in_or_app. right. apply A.
        destruct (N.ltb_spec k c); [reflexivity|]. apply N.ltb_lt. lia. }
  destruct V as [tok V]. exists tok. split; [exact V|].
  exact (proj1 (Forall_forall _ _) (load_order_tokens rot cursor keys) _ V).
Qed.

(* rotation of the cursor (finding F60).  The output set is sorted by stream id.  As coded, a cursor
   stream that has used up its tokens heads the next round again; with the repaired order it closes it. *)
Fixpoint asc (l : list N) : Prop :=
  match l with
  | [] => True
  | x :: t => Forall (fun y => x < y) t /\ asc t
  end.

Lemma asc_ainsert {A} (l : list (N * A)) k v : asc (map fst l) -> asc (map fst (StreamCtl.ainsert l k v)).
Proof.
  induction l as [|[k' v'] t IH]; cbn [StreamCtl.ainsert map fst asc]; [intros _; split; [constructor|exact I]|].
  intros [Hf Ha]. destruct (N.ltb_spec k k') as [Hlt|Hge].
  - cbn [map fst asc]. split; [|split; assumption]. constructor; [exact Hlt|].
    eapply Forall_impl; [|exact Hf]. intros y Hy. cbn in Hy. lia.
  - destruct (N.eqb_spec k' k) as [->|NE]; cbn [map fst asc]; [split; assumption|].
    split; [apply Forall_ainsert; [lia|exact Hf]|apply IH; exact Ha].
Qed.

Lemma filter_ge_head c : forall keys, asc keys -> In c keys -> exists t, filter (fun k => c <=? k) keys = c :: t.
Proof.
  induction keys as [|x r IH]; intros Ha Hin; [destruct Hin|]. cbn [asc] in Ha. destruct Ha as [Hf Ha]. cbn [filter].
  destruct Hin as [->|Hin].
  - rewrite N.leb_refl. eauto.
  - rewrite Forall_forall in Hf. specialize (Hf _ Hin). destruct (N.leb_spec c x); [lia|]. apply IH; assumption.
Qed.

Lemma filter_le_last c : forall keys, asc keys -> In c keys -> exists t, filter (fun k => k <=? c) keys = t ++ [c].
Proof.
  induction keys as [|x r IH]; intros Ha Hin; [destruct Hin|]. cbn [asc] in Ha. destruct Ha as [Hf Ha]. cbn [filter].
  destruct Hin as [->|Hin].
  - rewrite N.leb_refl. exists []. cbn [app]. f_equal.
    clear -Hf. induction r as [|y r IH]; [reflexivity|]. inversion Hf; subst. cbn [filter].
    destruct (N.leb_spec y c); [lia|]. apply IH; assumption.
  - pose proof Hf as Hf'. rewrite Forall_forall in Hf'. specialize (Hf' _ Hin). destruct (N.leb_spec x c); [|lia].
    destruct (IH Ha Hin) as [t Ht]. exists (x :: t). rewrite Ht. reflexivity.
Qed.
