(* Proofs about the sent-packet journal (Model/SentJournal.v): C07 uniqueness of packet
   numbers and the C10 clauses about delivered / lost frames. *)
From Coq Require Import List ZArith Lia Sorted.
From GQ Require Import Lib.Slice Model.SentJournal.
Import ListNotations.
Local Open Scope Z_scope.

(* histories: one event per mutex-protected step.  A NewPacketGuard life is one event; a
   SentRotateGuard life is the sequence of its calls followed by EvResize (its Drop). *)
Inductive sev :=
| EvNew (now : Z) (sc : np_script)
| EvAcked (pn : Z)
| EvLost (pn : Z)
| EvFast (now : Z)
| EvLargest (v : Z)
| EvResize (now : Z).

(* guard discipline of qconnection/src/tx.rs: Packages::dump returns Err (guard dropped) only
   when nothing was written, and Ok (packet built) only when something was written, and every
   written frame went through record_frame or record_trivial *)
Definition disciplined (sc : np_script) : Prop :=
  match np_mode_ sc with
  | NpAbandon => np_frames sc = []
  | NpBuildTime => np_trivial sc = true \/ np_frames sc <> []
  | NpBuildTrivial => True
  end.

Definition ev_ok (e : sev) : Prop := match e with EvNew _ sc => disciplined sc | _ => True end.

(* [all] is the ghost log: element k is the list of frames recorded by the guard that consumed
   packet number k *)
Definition ev_step (j : sjournal) (all : list (list Z)) (e : sev)
  : option (sjournal * list (list Z) * list Z) :=
  match e with
  | EvNew now sc =>
      match new_packet j now sc with
      | (Some j', _, consumed) => Some (j', if consumed then all ++ [np_frames sc] else all, [])
      | _ => None
      end
  | EvAcked pn => match on_packet_acked j pn with Some (j', out) => Some (j', all, out) | None => None end
  | EvLost pn => match may_loss_packet j pn with Some (j', out) => Some (j', all, out) | None => None end
  | EvFast now => match fast_retransmit j now with Some (j', out) => Some (j', all, out) | None => None end
  | EvLargest v => Some (fst (update_largest j v), all, [])
  | EvResize now => match resize j now with Some j' => Some (j', all, []) | None => None end
  end.

Fixpoint ev_run (j : sjournal) (all : list (list Z)) (h : list sev) : option (sjournal * list (list Z)) :=
  match h with
  | [] => Some (j, all)
  | e :: r => match ev_step j all e with Some (j', all', _) => ev_run j' all' r | None => None end
  end.

Definition sreach (h : list sev) (j : sjournal) (all : list (list Z)) : Prop :=
  Forall ev_ok h /\ ev_run sj_new [] h = Some (j, all).

Definition carried (all : list (list Z)) (pn : Z) : list Z := nth (Z.to_nat pn) all [].

Definition in_flight (j : sjournal) (pn : Z) : bool :=
  match s_get j pn with
  | Some (SFlight _ _ _ _) | Some (SRetrans _ _ _) => true
  | _ => false
  end.

(* packet numbers of the packets that left: the guard was built and did not panic *)
Definition is_built (sc : np_script) : bool :=
  match np_mode_ sc with NpAbandon => false | _ => true end.

Fixpoint emitted_pns (j : sjournal) (all : list (list Z)) (h : list sev) : list Z :=
  match h with
  | [] => []
  | e :: r =>
      match ev_step j all e with
      | Some (j', all', _) =>
          match e with
          | EvNew _ sc => if is_built sc then s_next j :: emitted_pns j' all' r else emitted_pns j' all' r
          | _ => emitted_pns j' all' r
          end
      | None => []
      end
  end.

Lemma upd_nth_length : forall A n (x : A) l, length (upd_nth n x l) = length l.
Proof. induction n; destruct l; cbn; auto. Qed.

Lemma nth_error_upd_nth : forall A n (x : A) l m, (n < length l)%nat ->
  nth_error (upd_nth n x l) m = if Nat.eqb m n then Some x else nth_error l m.
Proof. induction n; destruct l, m; cbn; intros; try lia; auto. apply IHn. lia. Qed.

Lemma upd_nth_app : forall A (l1 : list A) a x l2, upd_nth (length l1) x (l1 ++ a :: l2) = l1 ++ x :: l2.
Proof. induction l1; cbn; intros; [reflexivity|]. f_equal. auto. Qed.

Lemma Forall2_length : forall A B (R : A -> B -> Prop) l l', Forall2 R l l' -> length l = length l'.
Proof. induction 1; cbn; auto. Qed.

Lemma Forall2_nth_error : forall A B (R : A -> B -> Prop) l l' k y, Forall2 R l l' -> nth_error l' k = Some y ->
  exists x, nth_error l k = Some x /\ R x y.
Proof.
  intros A B R l l' k y H. revert k. induction H; intros [|k] Hk; cbn in *; try discriminate.
  - inversion Hk; subst. eauto.
  - auto.
Qed.

Lemma firstn_upd_nth : forall A n (x : A) l, firstn n (upd_nth n x l) = firstn n l.
Proof. induction n; destruct l; cbn; intros; auto. f_equal. auto. Qed.

Lemma sumn_app : forall a b, sumn (a ++ b) = (sumn a + sumn b)%nat.
Proof. induction a; cbn; intros; auto. rewrite IHa. lia. Qed.

Lemma sumn_firstn_le : forall k l, (sumn (firstn k l) <= sumn l)%nat.
Proof. intros k l. rewrite <- (firstn_skipn k l) at 2. rewrite sumn_app. lia. Qed.

Definition frames_match (recs : list sstate) (g : list (list Z)) : Prop :=
  Forall2 (fun s f => nframes s = length f) recs g.

Lemma fm_sumn : forall recs g, frames_match recs g -> sumn recs = length (concat g).
Proof. induction 1; cbn; auto. rewrite app_length. lia. Qed.

Lemma fm_length : forall recs g, frames_match recs g -> length recs = length g.
Proof. exact (Forall2_length _ _ _). Qed.

(* what every transition of a record keeps: its number of frames, and that a record which is not in
   flight (skipped, acknowledged) never is again *)
Definition flying (s : sstate) : bool :=
  match s with SFlight _ _ _ _ | SRetrans _ _ _ => true | _ => false end.

Definition evolve (s s' : sstate) : Prop :=
  nframes s' = nframes s /\ (flying s = false -> flying s' = false).

Lemma evolve_refl : forall s, evolve s s.
Proof. split; auto. Qed.

Lemma evolve_refl_list : forall l, Forall2 evolve l l.
Proof. induction l; constructor; auto using evolve_refl. Qed.

Lemma evolve_trans : forall a b c, evolve a b -> evolve b c -> evolve a c.
Proof. intros a b c [H1 H2] [H3 H4]. split; [congruence|auto]. Qed.

Lemma evolve_trans_list : forall a b c, Forall2 evolve a b -> Forall2 evolve b c -> Forall2 evolve a c.
Proof. intros a b c H. revert c. induction H; intros c H'; inversion_clear H'; constructor; eauto using evolve_trans. Qed.

Lemma evolve_match : forall l l' g, Forall2 evolve l l' -> frames_match l g -> frames_match l' g.
Proof.
  intros l l' g H. revert g. induction H as [|x y l l' [Hxy _] _ IH]; intros g M; inversion_clear M; constructor.
  - congruence.
  - apply IH. assumption.
Qed.

(* be_acked and maybe_lost hand out the frames of a record in flight, and nothing else *)
Definition feeder (f : sstate -> sstate * nat) : Prop :=
  forall s, evolve s (fst (f s)) /\ snd (f s) = if flying s then nframes s else O.

Lemma be_acked_feeder : feeder be_acked.
Proof. intros s. destruct s; repeat split; auto. Qed.

Lemma maybe_lost_feeder : feeder maybe_lost.
Proof. intros s. destruct s; repeat split; auto. Qed.

Lemma sra_evolve : forall now s, evolve s (fst (should_retransmit_after now s)).
Proof. intros now s. destruct s; cbn; try apply evolve_refl. destruct (retran <? now); split; auto. Qed.

Lemma evolve_upd_nth : forall l k s s', nth_error l k = Some s -> evolve s s' -> Forall2 evolve l (upd_nth k s' l).
Proof.
  intros l k s s' H E. destruct (nth_error_split _ _ H) as (l1 & l2 & -> & <-). rewrite upd_nth_app.
  apply Forall2_app; [apply evolve_refl_list|]. constructor; [exact E | apply evolve_refl_list].
Qed.

(* the upper end of the window needs no test: beyond it the list has no element *)
Lemma s_get_nth : forall j pn,
  s_get j pn = if s_off j <=? pn then nth_error (s_recs j) (Z.to_nat (pn - s_off j)) else None.
Proof.
  unfold s_get, s_next. intros j pn. destruct (Z.leb_spec (s_off j) pn); [|reflexivity].
  destruct (Z.ltb_spec pn (s_off j + Z.of_nat (length (s_recs j)))); [reflexivity|].
  symmetry. apply nth_error_None. lia.
Qed.

Lemma s_get_some : forall j pn s, s_get j pn = Some s ->
  s_off j <= pn < s_next j /\ nth_error (s_recs j) (Z.to_nat (pn - s_off j)) = Some s.
Proof.
  intros j pn s. rewrite s_get_nth. destruct (Z.leb_spec (s_off j) pn); [|discriminate]. intros G.
  assert (Z.to_nat (pn - s_off j) < length (s_recs j))%nat by (apply nth_error_Some; congruence).
  unfold s_next. split; [lia | exact G].
Qed.

Lemma s_get_none : forall j pn, s_get j pn = None -> pn < s_off j \/ s_next j <= pn.
Proof.
  intros j pn. rewrite s_get_nth. destruct (Z.leb_spec (s_off j) pn); [|lia]. intros G.
  apply nth_error_None in G. unfold s_next. lia.
Qed.

Lemma in_flight_flying : forall j pn, in_flight j pn = match s_get j pn with Some s => flying s | None => false end.
Proof. intros. unfold in_flight. destruct (s_get j pn) as [[]|]; reflexivity. Qed.

(* what a call of a SentRotateGuard does to the journal, in any state: [n] records leave at the front and take
   their frames with them, the others evolve *)
Definition rotated (j j' : sjournal) : Prop :=
  exists n, (n <= length (s_recs j))%nat /\ s_off j' = s_off j + Z.of_nat n /\
    Forall2 evolve (skipn n (s_recs j)) (s_recs j') /\ s_queue j' = skipn (sumn (firstn n (s_recs j))) (s_queue j).

Lemma rotated_refl : forall j, rotated j j.
Proof. intros j. exists O. cbn. rewrite Z.add_0_r. repeat split; [lia | apply evolve_refl_list]. Qed.

Lemma rotated_evolved : forall j j1 l la, rotated j j1 -> Forall2 evolve (s_recs j1) l ->
  rotated j (mksj (s_queue j1) (s_off j1) l la).
Proof.
  intros j j1 l la (n & Hn & Ho & E & Q) W. exists n. cbn.
  repeat split; [exact Hn | exact Ho | exact (evolve_trans_list _ _ _ E W) | exact Q].
Qed.

Lemma rotated_next : forall j j', rotated j j' -> s_next j' = s_next j.
Proof.
  intros j j' (n & Hn & Ho & E & _). unfold s_next. rewrite Ho, <- (Forall2_length _ _ _ _ _ E), skipn_length. lia.
Qed.

Definition settled (j : sjournal) (pn : Z) : Prop := pn < s_next j /\ in_flight j pn = false.

Lemma rotated_settled : forall j j' pn, rotated j j' -> settled j pn -> settled j' pn.
Proof.
  intros j j' pn R [Hlt F]. split; [rewrite (rotated_next _ _ R); exact Hlt|].
  destruct R as (n & Hn & Ho & E & _). rewrite in_flight_flying, s_get_nth in *.
  destruct (Z.leb_spec (s_off j') pn); [|reflexivity].
  destruct (nth_error (s_recs j') (Z.to_nat (pn - s_off j'))) as [s'|] eqn:Hk; [|reflexivity].
  (* the record of pn stands n places further back in j *)
  destruct (Forall2_nth_error _ _ _ _ _ _ _ E Hk) as (s & Hs & _ & Ev). rewrite nth_error_skipn in Hs.
  destruct (Z.leb_spec (s_off j) pn); [|lia].
  replace (Z.to_nat (pn - s_off j)) with (n + Z.to_nat (pn - s_off j'))%nat in F by lia. rewrite Hs in F. auto.
Qed.

Lemma feed_get : forall f j pn j' out, feed f j pn = Some (j', out) ->
  s_next j' = s_next j /\
  forall q, s_get j' q = if q =? pn then option_map (fun s => fst (f s)) (s_get j pn) else s_get j q.
Proof.
  unfold feed. intros f j pn j' out. destruct (s_get j pn) as [s|] eqn:G.
  - cbn [option_map]. destruct (f s) as [s' n]. destruct (_ <? _)%nat; [discriminate|]. intros [= <- <-].
    apply s_get_some in G. destruct G as [Hr Hk].
    assert (Hlt : (Z.to_nat (pn - s_off j) < length (s_recs j))%nat) by (apply nth_error_Some; congruence).
    split; [unfold s_next; cbn [s_off s_recs]; rewrite upd_nth_length; reflexivity|].
    intros q. rewrite !s_get_nth. cbn [s_off s_recs fst]. rewrite nth_error_upd_nth by exact Hlt.
    destruct (Z.eqb_spec q pn) as [->|Hq].
    + rewrite Nat.eqb_refl. destruct (Z.leb_spec (s_off j) pn); [reflexivity|lia].
    + destruct (Z.leb_spec (s_off j) q); [|reflexivity].
      replace (Nat.eqb _ _) with false by (symmetry; apply Nat.eqb_neq; lia). reflexivity.
  - destruct (_ <? _)%nat; [discriminate|]. intros [= <- <-].
    split; [reflexivity|]. intros q. destruct (Z.eqb_spec q pn) as [->|]; [exact G|reflexivity].
Qed.

Lemma feed_rotated : forall f j pn j' out, feeder f -> feed f j pn = Some (j', out) -> rotated j j'.
Proof.
  unfold feed. intros f j pn j' out Hf. destruct (s_get j pn) as [s|] eqn:G.
  - specialize (Hf s). destruct (f s) as [s' m]. destruct (_ <? _)%nat; [discriminate|]. intros [= <- _].
    apply rotated_evolved; [apply rotated_refl|]. apply s_get_some in G. exact (evolve_upd_nth _ _ _ _ (proj2 G) (proj1 Hf)).
  - destruct (_ <? _)%nat; [discriminate|]. intros [= <- _]. apply rotated_evolved; [apply rotated_refl | apply evolve_refl_list].
Qed.

Lemma resize_count_spec : forall now l n f, resize_count now l = (n, f) ->
  (n <= length l)%nat /\ f = sumn (firstn n l).
Proof.
  induction l as [|s l IH]; cbn; intros n f H.
  - injection H as <- <-. cbn. auto.
  - destruct (should_remain_after now s).
    + injection H as <- <-. cbn. split; [lia|reflexivity].
    + destruct (resize_count now l) as [n' f'] eqn:E. injection H as <- <-.
      destruct (IH _ _ eq_refl) as [Hn Hf]. subst f'. cbn. split; [lia|reflexivity].
Qed.

Lemma resize_rotated : forall j now j', resize j now = Some j' -> rotated j j'.
Proof.
  unfold resize. intros j now j'. destruct (resize_count now (s_recs j)) as [n f] eqn:E.
  destruct (resize_count_spec _ _ _ _ E) as [Hn ->]. destruct (_ <? _)%nat; [discriminate|]. intros [= <-].
  exists n. cbn. repeat split; [exact Hn | apply evolve_refl_list].
Qed.

Lemma fr_walk_evolve : forall now k l q, Forall2 evolve l (fst (fr_walk now k l q)).
Proof.
  induction k; intros l q; cbn; [apply evolve_refl_list|].
  destruct l as [|s r]; [constructor|].
  pose proof (sra_evolve now s) as Hs.
  destruct (should_retransmit_after now s) as [s' b].
  specialize (IHk r (skipn (nframes s) q)).
  destruct (fr_walk now k r (skipn (nframes s) q)) as [r' out]. cbn [fst] in *.
  constructor; auto.
Qed.

Lemma fast_rotated : forall j now j' out, fast_retransmit j now = Some (j', out) -> rotated j j'.
Proof.
  unfold fast_retransmit. intros j now j' out.
  destruct (resize j now) as [j1|] eqn:E; [|discriminate]. destruct (_ <? _)%nat; [discriminate|].
  pose proof (fr_walk_evolve now (Z.to_nat (s_la j1 - s_off j1)) (s_recs j1) (s_queue j1)) as W.
  destruct (fr_walk now (Z.to_nat (s_la j1 - s_off j1)) (s_recs j1) (s_queue j1)) as [r o]. cbn [fst] in W.
  intros [= <- _]. exact (rotated_evolved _ _ _ _ (resize_rotated _ _ _ E) W).
Qed.

Lemma update_largest_rotated : forall j v, rotated j (fst (update_largest j v)).
Proof.
  intros j v. unfold update_largest.
  destruct (_ <=? v); [apply rotated_refl | apply rotated_evolved; [apply rotated_refl | apply evolve_refl_list]].
Qed.

Record SInv (j : sjournal) (all : list (list Z)) : Prop := {
  si_off : 0 <= s_off j;
  si_len : Z.of_nat (length all) = s_next j;
  si_match : frames_match (s_recs j) (skipn (Z.to_nat (s_off j)) all);
  si_queue : s_queue j = concat (skipn (Z.to_nat (s_off j)) all) }.

Lemma SInv_init : SInv sj_new [].
Proof. constructor; cbn; auto; try lia. constructor. Qed.

Lemma SInv_queue_length : forall j all, SInv j all -> length (s_queue j) = sumn (s_recs j).
Proof. intros j all I. rewrite (si_queue _ _ I). symmetry. apply fm_sumn, I. Qed.

(* why no call of a SentRotateGuard can panic: the frames of any leading records are in the queue
   (range_mut / drain / range never out of bounds) *)
Lemma SInv_prefix : forall j all k, SInv j all -> (length (s_queue j) <? sumn (firstn k (s_recs j)))%nat = false.
Proof. intros j all k I. apply Nat.ltb_ge. rewrite (SInv_queue_length _ _ I). apply sumn_firstn_le. Qed.

(* the invariant as a cut of the log: [pre] is what the packets below the window recorded, [g] what
   the packets of the window did, record by record; the queue holds the frames of [g] *)
Lemma SInv_cut : forall j all, SInv j all <->
  exists pre g, all = pre ++ g /\ Z.of_nat (length pre) = s_off j /\ frames_match (s_recs j) g /\ s_queue j = concat g.
Proof.
  intros j all. split.
  - intros [Hoff Hlen M Q]. unfold s_next in Hlen.
    exists (firstn (Z.to_nat (s_off j)) all), (skipn (Z.to_nat (s_off j)) all).
    split; [symmetry; apply firstn_skipn|]. split; [rewrite firstn_length_le; lia | auto].
  - intros (pre & g & -> & Hp & M & Q).
    assert (Hsk : skipn (Z.to_nat (s_off j)) (pre ++ g) = g) by (rewrite <- Hp, Nat2Z.id; apply skipn_app_length).
    constructor; rewrite ?Hsk; auto; [lia|].
    unfold s_next. rewrite app_length, Nat2Z.inj_add, Hp, (fm_length _ _ M). reflexivity.
Qed.

Lemma rotated_inv : forall j j' all, rotated j j' -> SInv j all -> SInv j' all.
Proof.
  intros j j' all (n & Hn & Ho & E & Q') I. apply SInv_cut in I. destruct I as (pre & g & -> & Hp & M & Q).
  (* the records that go take their part of the log with them *)
  rewrite <- (firstn_skipn n (s_recs j)) in M. destruct (Forall2_app_inv_l _ _ M) as (g1 & g2 & M1 & M2 & ->).
  apply SInv_cut. exists (pre ++ g1), g2.
  split; [apply app_assoc|]. split; [|split; [exact (evolve_match _ _ _ E M2)|]].
  - rewrite Ho, app_length, <- (fm_length _ _ M1), firstn_length_le by exact Hn. lia.
  - rewrite Q', Q, (fm_sumn _ _ M1), concat_app. apply skipn_app_length.
Qed.

Lemma feed_spec : forall f j all pn, feeder f -> SInv j all ->
  exists j', feed f j pn = Some (j', if in_flight j pn then carried all pn else []).
Proof.
  intros f j all pn Hf I. unfold feed. rewrite in_flight_flying.
  set (k := Z.to_nat (pn - s_off j)).
  destruct (s_get j pn) as [s|] eqn:G.
  - apply s_get_some in G. destruct G as [Hr Hk]. fold k in Hk.
    (* cut the records, and the log with them, at pn *)
    apply SInv_cut in I. destruct I as (pre & g & -> & Hp & M & Q).
    destruct (nth_error_split _ _ Hk) as (r1 & r2 & Er & Hl). rewrite Er in M |- *.
    destruct (Forall2_app_inv_l _ _ M) as (g1 & g' & M1 & M' & ->).
    destruct g' as [|fr g2]; inversion_clear M' as [|? ? ? ? Hfr M2].
    destruct (Hf s) as [_ Hn]. destruct (f s) as [s' n]. cbn [fst snd] in *.
    rewrite <- Hl, firstn_app_length, Q, (fm_sumn _ _ M1), concat_app. cbn [concat].
    rewrite skipn_app_length, !app_length.
    destruct (Nat.ltb_spec (length (concat g1) + (length fr + length (concat g2))) (length (concat g1) + n));
      [destruct (flying s); lia|].
    eexists. do 2 f_equal. subst n. destruct (flying s); [|reflexivity].
    rewrite Hfr, firstn_app_length. unfold carried. rewrite app_assoc.
    replace (Z.to_nat pn) with (length (pre ++ g1)); [symmetry; apply nth_middle|].
    rewrite app_length, <- (fm_length _ _ M1). lia.
  - rewrite Nat.add_0_r, (SInv_prefix _ _ _ I). eexists. reflexivity.
Qed.

Lemma resize_total : forall j all now, SInv j all -> resize j now <> None.
Proof.
  unfold resize. intros j all now I. destruct (resize_count now (s_recs j)) as [n f] eqn:E.
  destruct (resize_count_spec _ _ _ _ E) as [_ ->]. rewrite (SInv_prefix _ _ _ I). discriminate.
Qed.

Lemma fast_total : forall j all now, SInv j all -> fast_retransmit j now <> None.
Proof.
  unfold fast_retransmit. intros j all now I. destruct (resize j now) as [j1|] eqn:E; [|destruct (resize_total _ _ _ I E)].
  rewrite (SInv_prefix _ _ _ (rotated_inv _ _ _ (resize_rotated _ _ _ E) I)).
  destruct (fr_walk now (Z.to_nat (s_la j1 - s_off j1)) (s_recs j1) (s_queue j1)). discriminate.
Qed.

(* the half of the discipline that C07 needs: a packet that is built recorded something *)
Definition built_ok (sc : np_script) : Prop :=
  np_mode_ sc = NpBuildTime -> np_trivial sc = true \/ np_frames sc <> [].

Lemma disciplined_built_ok : forall sc, disciplined sc -> built_ok sc.
Proof. unfold disciplined, built_ok. intros sc H E. rewrite E in H. exact H. Qed.

Lemma new_packet_spec : forall j now sc j' pe c, new_packet j now sc = (Some j', pe, c) ->
  (built_ok sc -> c = is_built sc) /\
  exists s, j' = mksj (s_queue j ++ np_frames sc) (s_off j) (if c then s_recs j ++ [s] else s_recs j) (s_la j)
       /\ (c = true -> nframes s = length (np_frames sc)).
Proof.
  intros j now sc j' pe c. unfold new_packet, push_rec, is_built, built_ok.
  destruct (encode (s_next j) (s_la j)) as [e| |]; try discriminate.
  destruct (np_mode_ sc).
  - destruct (np_trivial sc), (np_frames sc) as [|x r]; cbn [andb length Nat.eqb Nat.ltb Nat.leb].
    + (* trivial, no frame: a skipped record *)
      destruct (SLIMIT <? s_next j); [discriminate|]. intros [= <- _ <-].
      split; [auto|]. eexists. split; reflexivity.
    + destruct (SLIMIT <? s_next j); [discriminate|]. intros [= <- _ <-].
      split; [auto|]. eexists. split; reflexivity.
    + (* nothing recorded: the number is not consumed, which is what [built_ok] excludes *)
      intros [= <- _ <-]. split.
      * intros B. destruct (B eq_refl) as [B1|B1]; congruence.
      * exists SSkipped. split; [reflexivity|discriminate].
    + destruct (SLIMIT <? s_next j); [discriminate|]. intros [= <- _ <-].
      split; [auto|]. eexists. split; reflexivity.
  - destruct (np_frames sc) as [|x r]; cbn [length Nat.eqb negb]; [|discriminate].
    destruct (negb (np_trivial sc)); [discriminate|].
    destruct (SLIMIT <? s_next j); [discriminate|]. intros [= <- _ <-].
    split; [auto|]. eexists; split; [reflexivity|reflexivity].
  - intros [= <- _ <-]. split; [auto|]. exists SSkipped. split; [reflexivity|discriminate].
Qed.

Lemma new_packet_get : forall j now sc j' pe c, new_packet j now sc = (Some j', pe, c) ->
  s_next j' = (if c then s_next j + 1 else s_next j) /\ forall q, q < s_next j -> s_get j' q = s_get j q.
Proof.
  intros j now sc j' pe c H. destruct (new_packet_spec _ _ _ _ _ _ H) as (_ & s & -> & _).
  destruct c; [|auto]. unfold s_next. cbn [s_off s_recs]. rewrite app_length, Nat2Z.inj_add. split; [apply Z.add_assoc|].
  intros q Hq. rewrite !s_get_nth. cbn [s_off s_recs]. destruct (Z.leb_spec (s_off j) q); [|reflexivity].
  apply nth_error_app1. lia.
Qed.

Lemma new_packet_inv : forall j all now sc j' pe c, SInv j all -> disciplined sc ->
  new_packet j now sc = (Some j', pe, c) -> SInv j' (if c then all ++ [np_frames sc] else all).
Proof.
  intros j all now sc j' pe c I D H.
  destruct (new_packet_spec _ _ _ _ _ _ H) as (Hc & s & -> & Hs).
  specialize (Hc (disciplined_built_ok _ D)).
  apply SInv_cut in I. destruct I as (pre & g & -> & Hp & M & Q). apply SInv_cut. cbn [s_off s_recs s_queue].
  destruct c.
  - exists pre, (g ++ [np_frames sc]). split; [symmetry; apply app_assoc|]. split; [exact Hp|]. split.
    + apply Forall2_app; [exact M|]. constructor; [exact (Hs eq_refl)|constructor].
    + rewrite concat_app, Q. cbn. rewrite app_nil_r. reflexivity.
  - (* an abandoned guard recorded nothing *)
    exists pre, g. unfold is_built, disciplined in *. destruct (np_mode_ sc); try discriminate.
    rewrite D, app_nil_r. auto.
Qed.

(* one step, read backwards: a NewPacketGuard life is [new_packet]; every call of a SentRotateGuard rotates the
   journal and leaves the log alone *)
Lemma ev_step_back : forall j all e j' all' out, ev_step j all e = Some (j', all', out) ->
  match e with
  | EvNew now sc => exists pe c, new_packet j now sc = (Some j', pe, c) /\ all' = if c then all ++ [np_frames sc] else all
  | _ => rotated j j' /\ all' = all
  end.
Proof.
  intros j all e j' all' out H. destruct e; cbn [ev_step] in H.
  - destruct (new_packet j now sc) as [[[jn|] pe] c]; [|discriminate]. injection H as <- <- _. eauto.
  - destruct (on_packet_acked j pn) as [[jn o]|] eqn:E; [|discriminate]. injection H as <- <- _.
    split; [exact (feed_rotated _ _ _ _ _ be_acked_feeder E) | reflexivity].
  - destruct (may_loss_packet j pn) as [[jn o]|] eqn:E; [|discriminate]. injection H as <- <- _.
    split; [exact (feed_rotated _ _ _ _ _ maybe_lost_feeder E) | reflexivity].
  - destruct (fast_retransmit j now) as [[jn o]|] eqn:E; [|discriminate]. injection H as <- <- _.
    split; [exact (fast_rotated _ _ _ _ E) | reflexivity].
  - injection H as <- <- _. split; [apply update_largest_rotated | reflexivity].
  - destruct (resize j now) as [jn|] eqn:E; [|discriminate]. injection H as <- <- _.
    split; [exact (resize_rotated _ _ _ E) | reflexivity].
Qed.

Lemma ev_step_inv : forall j all e j' all' out, SInv j all -> ev_ok e ->
  ev_step j all e = Some (j', all', out) -> SInv j' all'.
Proof.
  intros j all e j' all' out I Ok H. apply ev_step_back in H.
  destruct e; try (destruct H as [R ->]; exact (rotated_inv _ _ _ R I)).
  destruct H as (pe & c & E & ->). exact (new_packet_inv _ _ _ _ _ _ _ I Ok E).
Qed.

Lemma ev_run_inv : forall h j all j' all', SInv j all -> Forall ev_ok h ->
  ev_run j all h = Some (j', all') -> SInv j' all'.
Proof.
  induction h as [|e r IH]; cbn; intros j all j' all' I Ok H.
  - injection H as <- <-. exact I.
  - inversion Ok; subst.
    destruct (ev_step j all e) as [[[j1 all1] out]|] eqn:E; [|discriminate].
    eapply IH; [eapply ev_step_inv; eauto | assumption | exact H].
Qed.

Lemma ev_step_settled : forall j all e j' all' out pn, settled j pn ->
  ev_step j all e = Some (j', all', out) -> settled j' pn.
Proof.
  intros j all e j' all' out pn S H. apply ev_step_back in H.
  destruct e; try exact (rotated_settled _ _ _ (proj1 H) S).
  (* a new record lies beyond pn *)
  destruct H as (pe & c & E & _). destruct (new_packet_get _ _ _ _ _ _ E) as [Hn Hg].
  destruct S as [Hlt F]. split; [destruct c; lia|]. unfold in_flight in *. rewrite Hg by exact Hlt. exact F.
Qed.

Lemma ev_run_settled : forall h j all j' all' pn, settled j pn ->
  ev_run j all h = Some (j', all') -> settled j' pn.
Proof.
  induction h as [|e r IH]; cbn; intros j all j' all' pn S H.
  - injection H as <- <-. exact S.
  - destruct (ev_step j all e) as [[[j1 all1] out]|] eqn:E; [|discriminate].
    exact (IH _ _ _ _ _ (ev_step_settled _ _ _ _ _ _ _ S E) H).
Qed.

Lemma ev_run_app : forall h1 h2 j all,
  ev_run j all (h1 ++ h2) =
  match ev_run j all h1 with Some (j1, all1) => ev_run j1 all1 h2 | None => None end.
Proof.
  induction h1 as [|e r IH]; cbn; intros; auto.
  destruct (ev_step j all e) as [[[j1 all1] out]|]; auto.
Qed.

Definition ev_built_ok (e : sev) : Prop := match e with EvNew _ sc => built_ok sc | _ => True end.

Lemma ev_ok_built : forall e, ev_ok e -> ev_built_ok e.
Proof. intros [] H; try exact H. exact (disciplined_built_ok _ H). Qed.

Lemma ev_step_next : forall j all e j' all' out, ev_built_ok e -> ev_step j all e = Some (j', all', out) ->
  s_next j' = match e with EvNew _ sc => if is_built sc then s_next j + 1 else s_next j | _ => s_next j end.
Proof.
  intros j all e j' all' out B H. apply ev_step_back in H.
  destruct e; try exact (rotated_next _ _ (proj1 H)).
  destruct H as (pe & c & E & _). rewrite <- (proj1 (new_packet_spec _ _ _ _ _ _ E) B). apply (new_packet_get _ _ _ _ _ _ E).
Qed.

Lemma emitted_sorted : forall h j all, Forall ev_built_ok h ->
  Forall (fun p => s_next j <= p) (emitted_pns j all h) /\ StronglySorted Z.lt (emitted_pns j all h).
Proof.
  induction h as [|e r IH]; cbn [emitted_pns]; intros j all Ok.
  - split; constructor.
  - inversion Ok as [|x l Hx Okr]; subst.
    destruct (ev_step j all e) as [[[j1 all1] out]|] eqn:E; [|split; constructor].
    pose proof (ev_step_next _ _ _ _ _ _ Hx E) as Hn.
    destruct (IH j1 all1 Okr) as [Hge Hs].
    assert (Hmono : Forall (fun p => s_next j <= p) (emitted_pns j1 all1 r)).
    { eapply Forall_impl; [|exact Hge]. cbn. intros p Hp. destruct e; try lia. destruct (is_built sc); lia. }
    destruct e; try (split; assumption).
    destruct (is_built sc); [|split; assumption].
    split.
    + constructor; [lia|exact Hmono].
    + constructor; [exact Hs|]. eapply Forall_impl; [|exact Hge]. cbn. intros p Hp. lia.
Qed.

(* a SentRotateGuard life (Model.SentJournal.rotate, as run by the `journal` stream) is the
   event sequence of its calls followed by EvResize *)
Definition ev_of (now : Z) (o : rot_op) : sev :=
  match o with RoAcked pn => EvAcked pn | RoLost pn => EvLost pn | RoFast => EvFast now | RoLargest v => EvLargest v end.

Lemma rot_run_events : forall ops j now j' outs all,
  rot_run j now ops = (Some j', outs) -> ev_run j all (map (ev_of now) ops) = Some (j', all).
Proof.
  induction ops as [|o r IH]; cbn [rot_run map ev_run]; intros j now j' outs all H.
  - injection H as <- <-. reflexivity.
  - destruct o; cbn [ev_of ev_step].
    + destruct (on_packet_acked j pn) as [[j1 o1]|]; [|discriminate].
      destruct (rot_run j1 now r) as [jr os] eqn:E. injection H as -> <-. eapply IH; eauto.
    + destruct (may_loss_packet j pn) as [[j1 o1]|]; [|discriminate].
      destruct (rot_run j1 now r) as [jr os] eqn:E. injection H as -> <-. eapply IH; eauto.
    + destruct (fast_retransmit j now) as [[j1 o1]|]; [|discriminate].
      destruct (rot_run j1 now r) as [jr os] eqn:E. injection H as -> <-. eapply IH; eauto.
    + destruct (update_largest j v) as [j1 ok] eqn:U. cbn [fst].
      destruct (rot_run j1 now r) as [jr os] eqn:E. injection H as -> <-. eapply IH; eauto.
Qed.
