(* System-level proofs for Model/Cid.v: every operation list on one endpoint (one RemoteCids, any
   number of connections on one shared router), every random oracle, every fuel.
   An operation is a move of the peer's IDs ([rstep]) and a move of the router and the connections
   ([cstep]), on at least one side the move that leaves it alone ([rs_none], [cs_none]); [step_cases]
   is the one place where [step] is taken apart, [steps_inv] the one induction on operation lists.
   The router invariants of Proofs/Router.v follow. *)
From Coq Require Import List NArith ZArith Bool.
From GQ Require Import Model.Router Model.LocalCid Model.RemoteCid Model.Cid
  Proofs.RemoteCid Proofs.Router Proofs.LocalCid.
Import ListNotations.
Local Open Scope N_scope.

(* a dropped connection owns nothing *)
Definition cview_of (cn : conn) : cview :=
  match c_local cn with
  | Some l => (somes (l_cells l), c_odcid cn)
  | None => ([], None)
  end.

Definition view_of (s : sys) : view := (e_tab (s_env s), map cview_of (s_conns s)).

(* observations of operations that leave the peer's IDs alone *)
Definition silent (x : out) : Prop :=
  match x with XNewCid _ _ | XPath _ _ | XBorrow _ | XFrames _ => False | _ => True end.

Section Sys.
  Variable chk : N -> N -> N -> bool.
  Variable post : rcids -> bool.
  Variable rnd : N -> cid.
  Variable fuel : nat.

  Notation genq := (genq rnd fuel).
  Notation step := (step chk post rnd fuel).
  Notation steps := (steps chk post rnd fuel).

  Definition is_force (o : op) : bool := match o with OForce _ => true | _ => false end.

  Inductive rstep (r : rcids) : out -> rcids -> Prop :=
  | rs_new seq rpt id r' fr res : rpt <= seq ->
      recv_new_cid chk post r seq rpt id = (r', fr, res) -> rstep r (XNewCid res fr) r'
  | rs_apply r' p fr : apply_dcid r = (r', p, fr) -> rstep r (XPath p fr) r'
  | rs_borrow p r' res : (p < length (r_cells r))%nat ->
      path_borrow r p = (r', res) -> rstep r (XBorrow res) r'
  | rs_release p r' fr : (p < length (r_cells r))%nat ->
      path_release r p = (r', fr) -> rstep r (XFrames fr) r'
  | rs_retire p r' fr : (p < length (r_cells r))%nat ->
      path_retire r p = (r', fr) -> rstep r (XFrames fr) r'
  | rs_none x : silent x -> rstep r x r.

  (* [forced]: a connection may be created although its origin DCID is routable *)
  Inductive cstep (forced : bool) (e : renv) (cs : list conn) : renv -> list conn -> Prop :=
  | cs_none : cstep forced e cs e cs
  | cs_local i l od h o e1 l1 fs r h' :
      nth_error cs i = Some (mkC (Some l) od h) ->
      lstep renv (genq (N.of_nat i)) retire_cid e l o = Some (e1, l1, fs, r) ->
      cstep forced e cs e1 (upd cs i (mkC (Some l1) od h'))
  | cs_new od e1 scid e3 l fs h :
      (forced = false -> match od with Some x => route e x = None | None => True end) ->
      genq (N.of_nat (length cs)) e = Some (e1, scid) ->
      l_new renv (genq (N.of_nat (length cs)))
            (match od with Some x => insert_odcid e1 x (N.of_nat (length cs)) | None => e1 end) scid
        = Some (e3, l, fs) ->
      cstep forced e cs e3 (cs ++ [mkC (Some l) od h])
  | cs_drop i l od h :
      nth_error cs i = Some (mkC (Some l) od h) ->
      cstep forced e cs
        (let e1 := retire_all renv retire_cid e (l_cells l) in
         match od with Some x => entry_drop e1 x (N.of_nat i) | None => e1 end)
        (upd cs i (mkC None None h)).

  Definition sides (forced : bool) (s : sys) (x : out) (s' : sys) : Prop :=
    cstep forced (s_env s) (s_conns s) (s_env s') (s_conns s') /\ rstep (s_remote s) x (s_remote s').

  Lemma sides_same : forall b s y s' x, (s, y) = (s', x) -> silent y -> sides b s x s'.
  Proof. intros b s y s' x E Hy. inversion E; subst. split; [apply cs_none|apply rs_none, Hy]. Qed.

  Lemma sides_local : forall b s e cs x,
    cstep b (s_env s) (s_conns s) e cs -> silent x -> sides b s x (mkS e cs (s_remote s) (s_held s)).
  Proof. intros. split; [assumption|apply rs_none; assumption]. Qed.

  Lemma sides_remote : forall b s r h x,
    rstep (s_remote s) x r -> sides b s x (mkS (s_env s) (s_conns s) r h).
  Proof. intros. split; [apply cs_none|assumption]. Qed.

  Lemma local_op_sides : forall b s i o s' x,
    local_op s i (fun e l => lstep renv (genq (N.of_nat i)) retire_cid e l o) = (s', x) -> sides b s x s'.
  Proof.
    intros b s i o s' x H. unfold local_op in H.
    destruct (nth_error (s_conns s) i) as [[[l|] od h]|] eqn:EN; try exact (sides_same _ _ _ _ _ H I).
    destruct (lstep _ _ _ (s_env s) l o) as [[[[e1 l1] fs] r]|] eqn:EF; [|exact (sides_same _ _ _ _ _ H I)].
    inversion H. apply sides_local; [eapply cs_local; eassumption|exact I].
  Qed.

  Lemma conn_new_sides : forall b s od s' x,
    (b = false -> match od with Some o => route (s_env s) o = None | None => True end) ->
    conn_new rnd fuel s od = (s', x) -> sides b s x s'.
  Proof.
    intros b s od s' x Hod H. unfold conn_new in H.
    destruct (genq (N.of_nat (length (s_conns s))) (s_env s)) as [[e1 scid]|] eqn:EG;
      [|exact (sides_same _ _ _ _ _ H I)].
    destruct (l_new _ _ _ scid) as [[[e3 l] fs]|] eqn:EL; [|exact (sides_same _ _ _ _ _ H I)].
    inversion H. apply sides_local; [eapply cs_new; eassumption|exact I].
  Qed.

  Lemma step_cases : forall s o s' x, step s o = (s', x) -> sides (is_force o) s x s'.
  Proof.
    intros s o s' x H. destruct o as [seq rpt id|c seq|c n| |p|p|p| |d|d|c|d|c| ]; cbn [Cid.step] in H.
    - destruct (N.ltb_spec seq rpt); [exact (sides_same _ _ _ _ _ H I)|].
      destruct (recv_new_cid chk post (s_remote s) seq rpt id) as [[r fr] res] eqn:ER.
      inversion H. apply sides_remote. eapply rs_new; eassumption.
    - exact (local_op_sides _ s c (LRet seq) s' x H).
    - exact (local_op_sides _ s c (LSet n) s' x H).
    - destruct (apply_dcid (s_remote s)) as [[r p] fr] eqn:EA. inversion H. apply sides_remote, (rs_apply _ _ _ _ EA).
    - destruct ((p <? length (r_cells (s_remote s)))%nat && negb (nmem p (s_held s))) eqn:EC;
        [|exact (sides_same _ _ _ _ _ H I)].
      apply andb_true_iff in EC. destruct EC as [EC _]. apply Nat.ltb_lt in EC.
      destruct (path_borrow (s_remote s) p) as [r res] eqn:EB. inversion H. apply sides_remote, (rs_borrow _ _ _ _ EC EB).
    - destruct (nmem p (s_held s) && (p <? length (r_cells (s_remote s)))%nat) eqn:EC;
        [|exact (sides_same _ _ _ _ _ H I)].
      apply andb_true_iff in EC. destruct EC as [_ EC]. apply Nat.ltb_lt in EC.
      destruct (path_release (s_remote s) p) as [r fr] eqn:EB. inversion H. apply sides_remote, (rs_release _ _ _ _ EC EB).
    - destruct (Nat.ltb_spec p (length (r_cells (s_remote s)))) as [EC|_]; [|exact (sides_same _ _ _ _ _ H I)].
      destruct (path_retire (s_remote s) p) as [r fr] eqn:EB. inversion H. apply sides_remote, (rs_retire _ _ _ _ EC EB).
    - eapply conn_new_sides; [|exact H]. intros _. exact I.
    - destruct (route (s_env s) d) eqn:ER; [exact (sides_same _ _ _ _ _ H I)|].
      eapply conn_new_sides; [|exact H]. intros _. exact ER.
    - eapply conn_new_sides; [|exact H]. discriminate.
    - destruct (nth_error (s_conns s) c) as [[[l|] od h]|] eqn:EN; try exact (sides_same _ _ _ _ _ H I).
      cbn [l_clear] in H. inversion H. apply sides_local; [exact (cs_drop _ _ _ _ _ _ _ EN)|exact I].
    - exact (sides_same _ _ _ _ _ H I).
    - destruct (nth_error (s_conns s) c) as [[[l|] od h]|] eqn:EN; try exact (sides_same _ _ _ _ _ H I).
      cbn [l_clear] in H. inversion H. apply sides_local; [|exact I].
      eapply (cs_local _ _ _ c l od h LClr); [exact EN|reflexivity].
    - exact (sides_same _ _ _ _ _ H I).
  Qed.

  Lemma step_rstep : forall s o s' x, step s o = (s', x) -> rstep (s_remote s) x (s_remote s').
  Proof. intros s o s' x H. exact (proj2 (step_cases _ _ _ _ H)). Qed.

  Lemma steps_inv : forall (Q : op -> bool) (P : sys -> list out -> Prop),
    (forall s xs o s' x, Q o = true -> P s xs -> step s o = (s', x) -> P s' (xs ++ [x])) ->
    forall ops s xs0 s' xs,
      forallb Q ops = true -> P s xs0 -> steps s ops = (s', xs) -> P s' (xs0 ++ xs).
  Proof.
    intros Q P Hstep. induction ops as [|o rest IH]; intros s xs0 s' xs HQ HP H; cbn [Cid.steps forallb] in *.
    - inversion H; subst. rewrite app_nil_r. exact HP.
    - apply andb_true_iff in HQ. destruct HQ as [Q1 Q2].
      destruct (step s o) as [s1 x] eqn:E1. destruct (steps s1 rest) as [s2 xs2] eqn:E2. inversion H; subst.
      change (x :: xs2) with ([x] ++ xs2). rewrite app_assoc.
      eapply IH; [exact Q2| |exact E2]. eapply Hstep; eassumption.
  Qed.

  Lemma steps_inv_all : forall P : sys -> list out -> Prop,
    (forall s xs o s' x, P s xs -> step s o = (s', x) -> P s' (xs ++ [x])) ->
    forall ops s xs0 s' xs, P s xs0 -> steps s ops = (s', xs) -> P s' (xs0 ++ xs).
  Proof.
    intros P Hstep ops s xs0 s' xs. apply (steps_inv (fun _ => true) P).
    - intros s0 xs1 o s1 x _. apply Hstep.
    - apply forallb_forall. reflexivity.
  Qed.

  Lemma gen_cmove {b i e e' c a od} : genq (N.of_nat i) e = Some (e', c) ->
    cmove b i (e_tab e) (a, od) (e_tab e') (a ++ [c], od).
  Proof.
    intros H. unfold Cid.genq in H. apply gen_unique_spec in H. destruct H as [Hf ->]. apply cmove_one, cc_gen, Hf.
  Qed.

  Lemma issue_cmove {b i e l e' l' f od} :
    issue renv (genq (N.of_nat i)) e l = Some (e', l', f) ->
    cmove b i (e_tab e) (somes (l_cells l), od) (e_tab e') (somes (l_cells l'), od).
  Proof.
    intros H. apply issue_spec in H. destruct H as [c [Hg [-> _]]].
    cbn [l_cells]. rewrite somes_app. exact (gen_cmove Hg).
  Qed.

  Lemma issue_n_cmove : forall b i od n e l e' l' fs,
    issue_n renv (genq (N.of_nat i)) n e l = Some (e', l', fs) ->
    cmove b i (e_tab e) (somes (l_cells l), od) (e_tab e') (somes (l_cells l'), od).
  Proof.
    intros b i od. induction n as [|n IH]; intros e l e' l' fs H; cbn [issue_n] in H.
    - inversion H; subst. apply cmove_refl.
    - destruct (issue renv (genq (N.of_nat i)) e l) as [[[e1 l1] f]|] eqn:E1; [|discriminate].
      destruct (issue_n renv (genq (N.of_nat i)) n e1 l1) as [[[e2 l2] fs2]|] eqn:E2; [|discriminate].
      inversion H; subst. exact (cmove_trans (issue_cmove E1) (IH _ _ _ _ _ E2)).
  Qed.

  (* clear(): the active IDs are retired one by one *)
  Lemma retire_all_cmove : forall b i od cells e,
    cmove b i (e_tab e) (somes cells, od) (e_tab (retire_all renv retire_cid e cells)) ([], od).
  Proof.
    intros b i od. induction cells as [|[c|] r IH]; intros e; cbn [retire_all somes].
    - apply cmove_refl.
    - exact (cmove_trans (cmove_one (cc_retire b i _ [] c (somes r) od)) (IH (retire_cid e c))).
    - apply IH.
  Qed.

  Lemma lstep_cmove : forall b i od o e l e' l' fs r,
    lstep renv (genq (N.of_nat i)) retire_cid e l o = Some (e', l', fs, r) ->
    cmove b i (e_tab e) (somes (l_cells l), od) (e_tab e') (somes (l_cells l'), od).
  Proof.
    intros b i od o e l e' l' fs r H.
    destruct (lstep_lmove _ _ _ _ _ _ _ _ _ _ H) as [|n e1 l1 fs1 _ _ E1|seq c e1 l2 f EG E1|].
    - apply cmove_refl.
    - exact (issue_n_cmove _ _ _ _ _ _ _ _ _ E1).
    - (* the replacement c' is generated while c is still routed, then c is retired *)
      destruct (cleared_somes _ _ _ EG) as (a1 & a2 & -> & Hs).
      apply issue_spec in E1. destruct E1 as (c' & Hg & -> & _).
      cbn [l_cells]. rewrite somes_app, Hs, <- app_assoc.
      refine (cmove_trans (gen_cmove Hg) _). rewrite <- app_assoc.
      exact (cmove_one (cc_retire b i _ a1 c (a2 ++ [c']) od)).
    - apply retire_all_cmove.
  Qed.

  Lemma cstep_vsteps : forall b e cs e' cs', cstep b e cs e' cs' ->
    vsteps b (e_tab e, map cview_of cs) (e_tab e', map cview_of cs').
  Proof.
    intros b e cs e' cs' H.
    destruct H as [|i l od h o e1 l1 fs r h' Hi H|od e1 scid e3 l fs h Hod EG EL|i l od h Hi].
    - apply vs_refl.
    - rewrite map_upd. exact (lstep_cmove b _ od _ _ _ _ _ _ _ H _ (map_nth_error cview_of _ _ Hi)).
    - (* a connection is added, its first ID generated, the origin DCID inserted, ID 1 issued *)
      unfold l_new in EL.
      destruct (issue _ _ _ (mkL 0 [Some scid] None)) as [[[e4 l4] f]|] eqn:EI; [|discriminate].
      inversion EL; subst e4 l4 fs. clear EL.
      rewrite map_app. cbn [map cview_of c_local c_odcid]. rewrite <- (map_length cview_of cs) in *.
      set (vs := map cview_of cs) in *. set (i := length vs) in *.
      eapply vs_cons; [apply v_conn|].
      rewrite <- (upd_last _ vs ([], None) (somes (l_cells l), od)). fold i.
      refine (cmove_trans (gen_cmove (a := []) EG) _ _ (nth_error_last _ vs _)).
      refine (cmove_trans (v1 := ([scid], od)) _ (issue_cmove EI)).
      destruct od as [x|]; [|apply cmove_refl]. apply cmove_one, cc_odcid.
      intros Hb y. specialize (Hod Hb). unfold route in Hod.
      apply gen_unique_spec in EG. rewrite (proj2 EG), get_insert. destruct (scid =? x); congruence.
    - rewrite map_upd. cbn [cview_of c_local]. pose proof (map_nth_error cview_of _ _ Hi) as Hv.
      refine (cmove_trans (retire_all_cmove b i od _ e) _ _ Hv).
      destruct od as [x|]; exact (cmove_one (cc_drop b i _ _)).
  Qed.

  Lemma step_vsteps : forall s o s' x, step s o = (s', x) -> vsteps (is_force o) (view_of s) (view_of s').
  Proof. intros s o s' x H. exact (cstep_vsteps _ _ _ _ _ (proj1 (step_cases _ _ _ _ H))). Qed.

  Lemma steps_VB : forall ops s s' xs, VB (view_of s) -> steps s ops = (s', xs) -> VB (view_of s').
  Proof.
    intros ops s s' xs HV H. refine (steps_inv_all (fun s _ => VB (view_of s)) _ ops s [] s' xs HV H).
    intros s1 _ o s2 x HV1 H1. exact (VB_vsteps _ _ _ (step_vsteps _ _ _ _ H1) HV1).
  Qed.

  Lemma steps_VC : forall ops s s' xs,
    forallb (fun o => negb (is_force o)) ops = true ->
    VC (view_of s) -> steps s ops = (s', xs) -> VC (view_of s').
  Proof.
    intros ops s s' xs Hnf HV H.
    refine (steps_inv (fun o => negb (is_force o)) (fun s _ => VC (view_of s)) _ ops s [] s' xs Hnf HV H).
    clear. intros s _ o s' x Hnf HV H. apply step_vsteps in H. apply negb_true_iff in Hnf. rewrite Hnf in H.
    exact (VC_vsteps _ _ H HV).
  Qed.
End Sys.
