(* OneRttPacketKeys as a state machine over key generations: which key does get_remote select?
   (C06, clause "receiver selects the generation the sender used, across key updates")
   Whatever is called, the keys are [keys l old] ([keys_calls]); everything below is arithmetic on l, old and the sender's generation. *)
From Coq Require Import List NArith Bool Lia.
From GQ Require Import Model.KeyPhase.
Import ListNotations.
Local Open Scope N_scope.

Definition other (b : kstate) : option N := k_slot b (negb (k_cur b)).

(* local generation l: its key sits in the slot of its phase, the generation to come is l + 1; the other slot holds the
   key of generation l - 1 or nothing *)
Definition keys (l : N) (old : bool) : kstate :=
  k_set_slot (k_set_slot (mkK (phase_of l) (l + 1) None None l) (phase_of l) (Some l))
             (negb (phase_of l)) (if old then Some (l - 1) else None).

Lemma phase_succ g : phase_of (g + 1) = negb (phase_of g).
Proof. unfold phase_of. rewrite N.add_1_r, N.odd_succ, <- N.negb_odd. reflexivity. Qed.

Lemma keys_loc l o : k_loc (keys l o) = l.
Proof. unfold keys. destruct (phase_of l); reflexivity. Qed.

Lemma keys_other l o : other (keys l o) = if o then Some (l - 1) else None.
Proof. unfold keys. destruct (phase_of l); reflexivity. Qed.

Lemma keys_update l o : k_update (keys l o) = keys (l + 1) true.
Proof. unfold keys. rewrite phase_succ, N.add_sub. destruct (phase_of l); reflexivity. Qed.

Lemma keys_phase_out l o : k_phase_out (keys l o) = keys l false.
Proof. unfold keys. destruct (phase_of l); reflexivity. Qed.

(* the current phase: that key; the other phase: the old key while it is there (also when the packet belongs to the
   generation to come, F20), else update() and the new key *)
Lemma keys_get_remote l o p : k_get_remote (keys l o) p =
  if eqb p (phase_of l) then (GKey l, keys l o)
  else if o then (GKey (l - 1), keys l o) else (GKey (l + 1), keys (l + 1) true).
Proof.
  rewrite <- (keys_update l o). unfold keys. destruct p, (phase_of l), o; reflexivity.
Qed.

(* against a sender at generation gs: the two ends are at most one generation apart, and a receiver that is ahead still
   holds the key of the sender's generation.  [d]: the receiver is not one behind with the old key still there. *)
Definition near (d : bool) (gs l : N) (o : bool) : Prop :=
  l <= gs + 1 /\ gs <= l + 1 /\ (l = gs + 1 -> o = true) /\ (o = true -> 1 <= l) /\
  (d = true -> l + 1 = gs -> o = false).

Definition Inv (d : bool) (s : ksys) : Prop := exists l o, s_b s = keys l o /\ near d (s_gs s) l o.

Lemma Inv_init d : Inv d sys_init.
Proof. exists 0, false. split; [reflexivity|]. unfold near. cbn. intuition (discriminate || lia). Qed.

(* an entry of the log: the packet was opened with the generation it was protected with, or - class F20, which the
   discipline rules out - the sender is at generation >= 2 and the receiver picked the key of two generations before *)
Definition log_ok (d : bool) (x : N * gres) : Prop :=
  sel_ok x \/ (if d then False else 2 <= fst x /\ snd x = GKey (fst x - 2)).

(* one delivery: the receiver is level with the sender or ahead and has the key; or it is one behind and follows
   (update()); or it is one behind and still holds the key of two generations ago in that slot (F20) *)
Lemma deliver_near d gs l o : near d gs l o ->
  exists r l' o', k_get_remote (keys l o) (phase_of gs) = (r, keys l' o') /\ near d gs l' o' /\ log_ok d (gs, r).
Proof.
  intros (H1 & H2 & H3 & H4 & H5). rewrite keys_get_remote. unfold log_ok, sel_ok, near. cbn [fst snd].
  assert (Hg : l = gs \/ l + 1 = gs \/ l = gs + 1) by lia. destruct Hg as [-> | [<- | ->]].
  - rewrite eqb_reflx. exists (GKey gs), gs, o. intuition lia.
  - rewrite phase_succ, eqb_negb1. destruct o.
    + exists (GKey (l - 1)), l, true. destruct d; [specialize (H5 eq_refl eq_refl); discriminate|].
      replace (l + 1 - 2) with (l - 1) by lia. intuition lia.
    + exists (GKey (l + 1)), (l + 1), true. intuition lia.
  - rewrite phase_succ, eqb_negb2, (H3 eq_refl), N.add_sub. exists (GKey gs), (gs + 1), true. intuition lia.
Qed.

(* FULL-STRENGTH STATEMENT IS REFUTED: no phase_out (nobody calls it), two sender updates *)
Lemma p_c06_keyphase_refuted :
  exists l s', sys_run k_get_remote sys_init l = Some s' /\ ~ Forall sel_ok (s_sel s') /\
               ~ In ERecvPhaseOut l /\ s_sel s' = [(0, GKey 0); (1, GKey 1); (2, GKey 0)].
Proof.
  exists [EDeliver; ESenderUpdate; EDeliver; ESenderUpdate; EDeliver].
  eexists. split; [vm_compute; reflexivity|]. split; [|split; [|reflexivity]].
  - intro H. inversion H as [|? ? _ H1]; subst. inversion H1 as [|? ? _ H2]; subst.
    inversion H2 as [|? ? H3 _]; subst. unfold sel_ok in H3. cbn in H3. discriminate.
  - cbn. intuition discriminate.
Qed.

(* "If the old one don't go, the new ones won't come": phase_out() is meant to run between two key
   updates.  [sys_step_d] is the system in which the sender only moves to the next generation from a
   synchronised state after the receiver has phased the old key out. *)
Definition sys_step_d (s : ksys) (e : kev) : option ksys :=
  match e with
  | ESenderUpdate =>
      if (k_loc (s_b s) =? s_gs s) && negb (is_none (other (s_b s))) then None else sys_step k_get_remote s e
  | _ => sys_step k_get_remote s e
  end.

Fixpoint sys_run_d (s : ksys) (l : list kev) : option ksys :=
  match l with
  | [] => Some s
  | e :: r => match sys_step_d s e with Some s' => sys_run_d s' r | None => None end
  end.

(* the system as the code allows it (d = false) and under the discipline (d = true), side by side *)
Definition step (d : bool) : ksys -> kev -> option ksys := if d then sys_step_d else sys_step k_get_remote.
Definition run (d : bool) : ksys -> list kev -> option ksys := if d then sys_run_d else sys_run k_get_remote.

Lemma step_inv d s e s1 : Inv d s -> step d s e = Some s1 ->
  Inv d s1 /\ (s_sel s1 = s_sel s \/ exists r, s_sel s1 = s_sel s ++ [(s_gs s, r)] /\ log_ok d (s_gs s, r)).
Proof.
  intros (l & o & Eb & Hn) E. destruct s as [gs b log]. cbn [s_b s_gs s_sel] in *. subst b. unfold Inv.
  (* the disciplined step is a step; the sender moves on only from a synchronised state whose old key is gone *)
  assert (E' : sys_step k_get_remote (mkS gs (keys l o) log) e = Some s1 /\
               (e = ESenderUpdate -> d = true -> l = gs -> o = false)).
  { destruct d; [|split; [exact E | discriminate]]. destruct e; try (split; [exact E | discriminate]).
    cbn [step sys_step_d s_b s_gs] in E. rewrite keys_loc, keys_other in E.
    destruct (N.eqb_spec l gs), o; try discriminate; split; (assumption || reflexivity || contradiction). }
  clear E. destruct E' as [E Hd]. pose proof Hn as (H1 & H2 & H3 & H4 & H5). unfold near.
  destruct e; cbn [sys_step s_b s_gs s_sel] in E; rewrite ?keys_loc in E.
  - destruct (N.leb_spec gs l); [|discriminate]. injection E as <-. cbn [s_b s_gs s_sel]. specialize (Hd eq_refl).
    split; [exists l, o | left; reflexivity]. repeat split; try lia; [exact H4|]. intros Hd' Hl. apply Hd; [exact Hd' | lia].
  - destruct (deliver_near d gs l o Hn) as (r & l' & o' & Er & Hn' & Hok). rewrite Er in E. injection E as <-. cbn [s_b s_gs s_sel fst snd].
    split; [exists l', o'; auto | right; exists r; auto].
  - destruct (N.leb_spec l gs); [|discriminate]. injection E as <-. cbn [s_b s_gs s_sel]. rewrite keys_update.
    split; [exists (l + 1), true | left; reflexivity]. intuition lia.
  - destruct (N.leb_spec l gs); [|discriminate]. injection E as <-. cbn [s_b s_gs s_sel]. rewrite keys_phase_out.
    split; [exists l, false | left; reflexivity]. intuition (discriminate || lia).
Qed.

Lemma run_inv d : forall l s s', Inv d s -> Forall (log_ok d) (s_sel s) ->
  run d s l = Some s' -> Inv d s' /\ Forall (log_ok d) (s_sel s').
Proof.
  induction l as [|e l IH]; intros s s' HI HL Hr.
  - replace s' with s by (destruct d; injection Hr; auto). auto.
  - assert (Hr' : match step d s e with Some s1 => run d s1 l | None => None end = Some s') by (destruct d; exact Hr).
    destruct (step d s e) as [s1|] eqn:E; [|discriminate].
    destruct (step_inv d s e s1 HI E) as [HI1 [Hl | (r & Hl & Hok)]]; apply (IH s1 s' HI1); auto; rewrite Hl; [exact HL|].
    apply Forall_app. split; [exact HL|]. constructor; [exact Hok|constructor].
Qed.

(* the methods of OneRttPacketKeys, called in any order: what c06_get_remote_no_panic (Properties/C06.v) ranges over *)
Inductive kcall := CUpdate | CPhaseOut | CGetRemote (p : bool).
Definition k_call (s : kstate) (c : kcall) : kstate :=
  match c with CUpdate => k_update s | CPhaseOut => k_phase_out s | CGetRemote p => snd (k_get_remote s p) end.

Lemma keys_calls : forall cs l o, exists l' o', fold_left k_call cs (keys l o) = keys l' o'.
Proof.
  induction cs as [|c r IH]; intros l o; [exists l, o; reflexivity|].
  cbn [fold_left]. destruct c as [| |p]; cbn [k_call]; rewrite ?keys_update, ?keys_phase_out, ?keys_get_remote; [apply IH ..|].
  destruct (eqb p (phase_of l)), o; apply IH.
Qed.
