(* C02 — soundness of the history monitor (Model/C02Monitor.v): if the monitor accepts a history
   then the safety predicates of the property hold of that history.  The predicates are stated
   with the specification functions below (plain filters over the event list), independently of
   the monitor's incremental state. *)
From Coq Require Import List ZArith Bool Lia Permutation.
From GQ Require Import Model.C02Monitor.
Import ListNotations.
Local Open Scope N_scope.

Fixpoint writes (h : list ev) (w sid : N) : list Z :=
  match h with
  | [] => []
  | AppWrite w' sid' bs :: t => if (w' =? w) && (sid' =? sid) then bs ++ writes t w sid else writes t w sid
  | _ :: t => writes t w sid
  end.
Fixpoint reads (h : list ev) (r sid : N) : list Z :=
  match h with
  | [] => []
  | AppRead r' sid' bs :: t => if (r' =? r) && (sid' =? sid) then bs ++ reads t r sid else reads t r sid
  | _ :: t => reads t r sid
  end.
Fixpoint shutdown_in (h : list ev) (w sid : N) : bool :=
  match h with
  | [] => false
  | AppShutdown w' sid' :: t => ((w' =? w) && (sid' =? sid)) || shutdown_in t w sid
  | _ :: t => shutdown_in t w sid
  end.
Fixpoint eos_in (h : list ev) (r sid : N) : bool :=
  match h with
  | [] => false
  | AppEos r' sid' :: t => ((r' =? r) && (sid' =? sid)) || eos_in t r sid
  | _ :: t => eos_in t r sid
  end.
Fixpoint dsent (h : list ev) (s : N) : list (list Z) :=
  match h with
  | [] => []
  | DgramSend s' bs :: t => if s' =? s then bs :: dsent t s else dsent t s
  | _ :: t => dsent t s
  end.
Fixpoint drecv (h : list ev) (r : N) : list (list Z) :=
  match h with
  | [] => []
  | DgramRecv r' bs :: t => if r' =? r then bs :: drecv t r else drecv t r
  | _ :: t => drecv t r
  end.
(* time at which the application of side s is first told that the connection ended *)
Fixpoint first_err (h : list ev) (s : N) : option N :=
  match h with
  | [] => None
  | ConnError s' _ t :: r => if s' =? s then Some t else first_err r s
  | _ :: r => first_err r s
  end.

(* every clause of the monitor is a fold of a step function over the history; its soundness is a
   relation R between a state, a history and the state the fold reaches from there *)
Lemma run_ind : forall S (step : S -> ev -> option S) (R : S -> list ev -> S -> Prop),
  (forall s, R s [] s) ->
  (forall s e s1 t s', step s e = Some s1 -> R s1 t s' -> R s (e :: t) s') ->
  forall h s i s', run step s h i = inl s' -> R s h s'.
Proof.
  intros S step R R0 RS. induction h as [|e t IH]; intros s i s' H; cbn [run] in H.
  - injection H as <-. apply R0.
  - destruct (step s e) as [s1|] eqn:E; [|discriminate]. exact (RS _ _ _ _ _ E (IH _ _ _ H)).
Qed.

Lemma run_app : forall S (step : S -> ev -> option S) h1 h2 s i s2,
  run step s (h1 ++ h2) i = inl s2 -> exists s1 j, run step s h1 i = inl s1 /\ run step s1 h2 j = inl s2.
Proof.
  induction h1 as [|e r IH]; intros h2 s i s2 H; cbn [app run] in *; [eauto|].
  destruct (step s e); [apply IH; exact H|discriminate].
Qed.

Lemma accepted_inl : forall S (r : S + N), accepted r = true -> exists s, r = inl s.
Proof. intros S [s|i] H; [eauto|discriminate]. Qed.

(* a clause that is run once for each side *)
Lemma both_sides : forall f : N -> bool, f 0 && f 1 = true -> forall s, s < 2 -> f s = true.
Proof.
  intros f H s Hs. apply andb_true_iff in H. assert (s = 0 \/ s = 1) as [->| ->] by lia; tauto.
Qed.

Lemma simple_event_ok : forall h, simple_ok h = true -> forall e, In e h -> event_ok e = true.
Proof.
  intros h H. apply accepted_inl in H. destruct H as [v H]. revert H.
  apply (run_ind _ simple_step (fun _ h _ => forall e, In e h -> event_ok e = true)).
  - intros _ e [].
  - intros u x u1 t u' E IH e [<-|He]; [|exact (IH e He)].
    unfold simple_step in E. destruct (event_ok x); [reflexivity|discriminate].
Qed.

Lemma simple_side : forall h e s, simple_ok h = true -> In e h -> side_of e = Some s -> s < 2.
Proof.
  intros h e s H I Es. pose proof (simple_event_ok _ H e I) as Ok.
  destruct e; cbn in Es, Ok; try discriminate; injection Es as <-;
    try (apply andb_true_iff in Ok; destruct Ok as [Ok _]); apply N.ltb_lt; exact Ok.
Qed.

Lemma strip_prefix_spec : forall bs l rest, strip_prefix bs l = Some rest -> l = bs ++ rest.
Proof.
  induction bs as [|b bs IH]; intros l rest H; cbn in *; [congruence|].
  destruct l as [|x l]; [discriminate|].
  destruct (Z.eqb_spec b x); [|discriminate]. subst. f_equal. apply IH; exact H.
Qed.

(* the state of a direction is what the specification functions say of the history so far *)
Lemma stream_run_inv : forall r sid h s i s',
  run (stream_step r sid) s h i = inl s' ->
  pend s ++ writes h (other r) sid = reads h r sid ++ pend s'
  /\ shut s' = shut s || shutdown_in h (other r) sid
  /\ eos s' = eos s || eos_in h r sid
  /\ (shut s = true -> writes h (other r) sid = [])
  /\ (eos_in h r sid = true -> pend s' = [] /\ shut s' = true).
Proof.
  intros r sid. refine (run_ind _ _ _ _ _).
  - intros s. cbn. rewrite app_nil_r, !orb_false_r. repeat (split; [reflexivity|]). discriminate.
  - intros s e s1 t s' E IH.
    destruct e; cbn [stream_step] in E; cbn [writes reads shutdown_in eos_in];
      try (injection E as <-; exact IH);
      (destruct (_ && _); [|injection E as <-; exact IH]);
      destruct IH as (A & C & D & F & G).
    + (* a write of this direction: refused after shutdown *)
      destruct (shut s) eqn:Sh; [discriminate|]. injection E as <-.
      cbn [pend shut eos] in *. rewrite app_assoc. repeat (split; [assumption|]). split; [discriminate|exact G].
    + (* shutdown *)
      injection E as <-.
      cbn [pend shut eos orb] in *. rewrite orb_true_r. repeat (split; [assumption|]). split; [intros _; exact (F eq_refl)|exact G].
    + (* a read returns the next unread bytes *)
      destruct (strip_prefix bs (pend s)) as [rest|] eqn:P; [|discriminate]. injection E as <-.
      apply strip_prefix_spec in P.
      cbn [pend shut eos] in *. rewrite P, <- !app_assoc, A. repeat (split; [assumption || reflexivity|]). exact G.
    + (* end-of-stream: only with nothing unread and after the shutdown; nothing is written later, so
         nothing is left unread at the end either *)
      destruct (pend s) eqn:P; [|discriminate]. destruct (shut s) eqn:Sh; [|discriminate]. injection E as <-.
      cbn [pend shut eos orb] in *. specialize (F eq_refl). rewrite orb_true_r.
      repeat (split; [assumption|]). split; [intros _; exact F|]. intros _. split; [|exact C].
      rewrite F in A. symmetry in A. apply app_eq_nil in A. apply A.
Qed.

Lemma key_eqb_eq : forall a b, key_eqb a b = true <-> a = b.
Proof.
  intros [a1 a2] [b1 b2]. unfold key_eqb. cbn. rewrite andb_true_iff, !N.eqb_eq.
  split; [intros [-> ->]; reflexivity|intro H; inversion H; auto].
Qed.

Lemma in_dedup : forall l k, In k l -> In k (dedup l).
Proof.
  induction l as [|x t IH]; intros k H; [destruct H|].
  cbn [dedup]. destruct (existsb (key_eqb x) t) eqn:E.
  - destruct H as [->|H]; [|apply IH; exact H].
    apply existsb_exists in E. destruct E as (y & Hy & Ey). apply key_eqb_eq in Ey. subst y. apply IH; exact Hy.
  - destruct H as [->|H]; [left; reflexivity|right; apply IH; exact H].
Qed.

Lemma key_dec : forall a b : N * N, {a = b} + {a <> b}.
Proof. decide equality; apply N.eq_dec. Qed.

Lemma key_match : forall a b r sid, (a =? r) && (b =? sid) = true -> (a, b) = (r, sid).
Proof. intros a b r sid K. apply andb_true_iff in K as [K1 K2]. apply N.eqb_eq in K1, K2. congruence. Qed.

(* a direction the monitor does not run has no reader-side event *)
Lemma not_in_rkeys : forall h r sid, ~ In (r, sid) (rkeys h) -> reads h r sid = [] /\ eos_in h r sid = false.
Proof.
  induction h as [|e t IH]; intros r sid H; [cbn; auto|].
  destruct e; cbn [rkeys reads eos_in] in *; try (apply IH; exact H);
    (destruct (_ && _) eqn:K; [destruct H; left; apply key_match; exact K|]);
    apply IH; intro; apply H; right; assumption.
Qed.

Lemma rkeys_app : forall h1 h2, rkeys (h1 ++ h2) = rkeys h1 ++ rkeys h2.
Proof.
  induction h1 as [|e t IH]; intro h2; [reflexivity|].
  destruct e; cbn [app rkeys]; rewrite ?IH; reflexivity.
Qed.

Lemma p_streams_prefix : forall h1 h2 r sid,
  streams_ok (h1 ++ h2) = true ->
  (exists rest, writes h1 (other r) sid = reads h1 r sid ++ rest) /\
  (eos_in h1 r sid = true ->
     reads h1 r sid = writes h1 (other r) sid /\ shutdown_in h1 (other r) sid = true /\
     writes h2 (other r) sid = []).
Proof.
  intros h1 h2 r sid H.
  destruct (in_dec key_dec (r, sid) (rkeys h1)) as [I|I].
  - unfold streams_ok in H. rewrite forallb_forall in H.
    assert (I' : In (r, sid) (dedup (rkeys (h1 ++ h2)))).
    { apply in_dedup. rewrite rkeys_app. apply in_or_app. left. exact I. }
    apply H, accepted_inl in I'. destruct I' as [s2 R]. apply run_app in R. destruct R as (s1 & j & R1 & R2).
    destruct (stream_run_inv _ _ _ _ _ _ R1) as (A & C & _ & _ & G).
    cbn [fst snd pend shut ss0 app orb] in *.
    split; [exists (pend s1); exact A|].
    intro E. destruct (G E) as [Hp Hs].
    rewrite Hp, app_nil_r in A. rewrite Hs in C.
    split; [symmetry; exact A|]. split; [symmetry; exact C|].
    apply (stream_run_inv _ _ _ _ _ _ R2). exact Hs.
  - destruct (not_in_rkeys _ _ _ I) as [R E]. rewrite R, E. split; [eexists; reflexivity|discriminate].
Qed.

Lemma bytes_eqb_eq : forall a b, bytes_eqb a b = true -> a = b.
Proof.
  induction a as [|x a IH]; intros [|y b] H; cbn in H; try discriminate; [reflexivity|].
  apply andb_true_iff in H as [H1 H2]. apply Z.eqb_eq in H1. subst. f_equal. apply IH; exact H2.
Qed.

Lemma remove1_perm : forall b l l', remove1 b l = Some l' -> Permutation l (b :: l').
Proof.
  intros b. induction l as [|x t IH]; intros l' H; cbn in H; [discriminate|].
  destruct (bytes_eqb b x) eqn:E.
  - apply bytes_eqb_eq in E. inversion H; subst. apply Permutation_refl.
  - destruct (remove1 b t) as [t'|] eqn:R; [|discriminate]. inversion H; subst.
    eapply perm_trans; [apply perm_skip; apply IH; reflexivity|apply perm_swap].
Qed.

(* the state is the multiset of datagrams sent to r and not yet received *)
Lemma dgram_run_perm : forall r h out i out',
  run (dgram_step r) out h i = inl out' ->
  Permutation (out ++ dsent h (other r)) (drecv h r ++ out').
Proof.
  intros r. refine (run_ind _ _ _ _ _).
  - intro out. cbn. rewrite app_nil_r. apply Permutation_refl.
  - intros out e o1 t out' E IH.
    destruct e; cbn [dgram_step] in E; cbn [dsent drecv]; try (injection E as <-; exact IH).
    + destruct (side =? other r); injection E as <-; [rewrite <- app_assoc in IH|]; exact IH.
    + destruct (side =? r); [|injection E as <-; exact IH].
      apply remove1_perm in E.
      eapply perm_trans; [apply Permutation_app_tail; exact E|]. cbn. apply perm_skip. exact IH.
Qed.

Lemma dgram_run_recv : forall r h1 bs h2 i out,
  run (dgram_step r) [] (h1 ++ DgramRecv r bs :: h2) i = inl out -> In bs (dsent h1 (other r)).
Proof.
  intros r h1 bs h2 i out H. apply run_app in H. destruct H as (o1 & j & H1 & H2).
  cbn [run dgram_step] in H2. rewrite N.eqb_refl in H2.
  destruct (remove1 bs o1) as [o2|] eqn:Rm; [|discriminate]. apply remove1_perm in Rm.
  apply dgram_run_perm in H1. cbn [app] in H1.
  apply (Permutation_in _ (Permutation_sym H1)), in_or_app. right.
  apply (Permutation_in _ (Permutation_sym Rm)). left. reflexivity.
Qed.

Lemma closed_step_true : forall s e c1, closed_step s true e = Some c1 -> c1 = true /\ data_event_of s e = false.
Proof.
  intros s e c1 E. destruct e; cbn [closed_step andb] in E;
    try (destruct (data_event_of s _); [discriminate|injection E as <-; auto]).
  destruct (side =? s); injection E as <-; auto.
Qed.

Lemma closed_run_true : forall s h c i c', run (closed_step s) c h i = inl c' -> c = true ->
  forall e, In e h -> data_event_of s e = false.
Proof.
  intros s. refine (run_ind _ _ _ _ _).
  - intros c _ e [].
  - intros c x c1 t c' E IH -> e He. apply closed_step_true in E. destruct E as [-> Dx].
    destruct He as [<-|He]; [exact Dx|exact (IH eq_refl e He)].
Qed.

Lemma closed_run_after : forall s h1 t h2 c i c', run (closed_step s) c (h1 ++ Closed s t :: h2) i = inl c' ->
  forall e, In e h2 -> data_event_of s e = false.
Proof.
  intros s h1 t h2 c i c' H. apply run_app in H. destruct H as (c1 & j & _ & H).
  cbn [run closed_step] in H. rewrite N.eqb_refl in H. exact (closed_run_true _ _ _ _ _ H eq_refl).
Qed.

Lemma term_step_err : forall B s st e st1, term_step B s st e = Some st1 ->
  tclock st <= tclock st1 /\
  match first_err [e] s with
  | Some t => tclock st <= t /\ terr st1 = match terr st with Some te => Some te | None => Some t end
  | None => terr st1 = terr st
  end.
Proof.
  intros B s st e st1 E.
  destruct e; cbn [term_step first_err] in *; try (injection E as <-; split; [lia|reflexivity]);
    (destruct (side =? s); [|injection E as <-; split; [lia|reflexivity]]);
    (destruct (N.leb_spec (tclock st) t); [|discriminate]).
  - injection E as <-. cbn. auto.
  - injection E as <-. cbn. auto.
  - destruct (filter _ _); [discriminate|]. destruct (forallb _ _); [|discriminate]. injection E as <-. cbn. auto.
Qed.

Lemma term_step_pending : forall B s st e st1 id ts, term_step B s st e = Some st1 -> In (id, ts) (tops st) ->
  In (id, ts) (tops st1) \/
  exists res, e = OpCompleted s id res (tclock st1) /\ terr st1 = terr st /\ bound_ok B (terr st) ts (tclock st1) = true.
Proof.
  intros B s st e st1 id ts E I.
  destruct e; cbn [term_step] in E; try (injection E as <-; left; exact I);
    (destruct (N.eqb_spec side s) as [->|]; [|injection E as <-; left; exact I]);
    (destruct (tclock st <=? t); [|discriminate]).
  - injection E as <-. left. exact I.
  - injection E as <-. left. right. exact I.
  - destruct (filter (fun p => fst p =? id0) (tops st)) as [|m ms] eqn:Fm; [discriminate|].
    destruct (forallb _ (m :: ms)) eqn:Fb; [|discriminate]. injection E as <-. cbn [tops terr tclock].
    destruct (N.eqb_spec id id0) as [->|Ne].
    + right. exists res. repeat split. rewrite forallb_forall in Fb. apply (Fb (id0, ts)).
      rewrite <- Fm. apply filter_In. split; [exact I|apply N.eqb_refl].
    + left. apply filter_In. split; [exact I|]. apply negb_true_iff, N.eqb_neq. exact Ne.
Qed.

Lemma term_run_inv : forall B s h st i st',
  run (term_step B s) st h i = inl st' ->
  terr st' = match terr st with Some te => Some te | None => first_err h s end
  /\ (terr st = None -> forall te, terr st' = Some te -> tclock st <= te)
  /\ (forall id ts, In (id, ts) (tops st) ->
        In (id, ts) (tops st') \/
        exists res tc, In (OpCompleted s id res tc) h /\ forall te, terr st' = Some te -> tc <= N.max te ts + B).
Proof.
  intros B s. refine (run_ind _ _ _ _ _).
  - intro st. split; [destruct (terr st); reflexivity|]. split; [intros -> te H; discriminate|auto].
  - intros st e st1 t st' E (R1 & R2 & R3).
    destruct (term_step_err _ _ _ _ _ E) as [Ck Er].
    assert (F : first_err (e :: t) s = match first_err [e] s with Some x => Some x | None => first_err t s end).
    { destruct e; try reflexivity. cbn. destruct (side =? s); reflexivity. }
    rewrite F. split; [|split].
    + rewrite R1. destruct (first_err [e] s); [destruct Er as [_ ->]|rewrite Er]; destruct (terr st); reflexivity.
    + intros T te Hte. rewrite T in Er. destruct (first_err [e] s).
      * destruct Er as [Le Er]. rewrite Er in R1. congruence.
      * specialize (R2 Er te Hte). lia.
    + intros id ts I. destruct (term_step_pending _ _ _ _ _ id ts E I) as [I1|(res & -> & Er1 & Bd)].
      * destruct (R3 id ts I1) as [X|(res & tc & X & Y)]; [left; exact X|].
        right. exists res, tc. split; [right; exact X|exact Y].
      * (* completed here, at tc: either the error time was known and the monitor compared with it,
           or the error came later, after tc *)
        right. exists res, (tclock st1). split; [left; reflexivity|]. intros te Hte.
        rewrite <- Er1 in Bd. unfold bound_ok in Bd. destruct (terr st1).
        -- rewrite R1 in Hte. injection Hte as <-. apply N.leb_le. exact Bd.
        -- specialize (R2 eq_refl te Hte). lia.
Qed.

Lemma p_term_side : forall B h s,
  term_end_ok (term_run B h s) = true ->
  forall te, first_err h s = Some te ->
  forall id ts, In (OpPending s id ts) h ->
  exists res tc, In (OpCompleted s id res tc) h /\ tc <= N.max te ts + B.
Proof.
  intros B h s H te Fe id ts I. unfold term_run in H.
  destruct (run (term_step B s) ts0 h 0) as [st'|] eqn:R; [|discriminate].
  destruct (term_run_inv _ _ _ _ _ _ R) as (R1 & _ & _). cbn [terr ts0] in R1. rewrite Fe in R1.
  cbn [term_end_ok] in H. rewrite R1 in H.
  apply in_split in I. destruct I as (h1 & h2 & ->).
  apply run_app in R. destruct R as (st1 & j & _ & R). cbn [run term_step] in R. rewrite N.eqb_refl in R.
  destruct (tclock st1 <=? ts); [|discriminate].
  destruct (term_run_inv _ _ _ _ _ _ R) as (_ & _ & R3).
  destruct (R3 id ts (or_introl eq_refl)) as [X|(res & tc & X & Y)].
  - destruct (tops st'); [destruct X|discriminate].
  - exists res, tc. split; [apply in_or_app; right; right; exact X|exact (Y te R1)].
Qed.

Lemma other_other : forall r, r < 2 -> other (other r) = r.
Proof.
  intros r H. unfold other. destruct (N.eqb_spec r 0) as [->|Ne]; [reflexivity|].
  cbn. lia.
Qed.

(* a direction the liveness clause does not run has no writer-side event *)
Lemma not_in_wkeys : forall h r sid, r < 2 -> ~ In (r, sid) (wkeys h) ->
  writes h (other r) sid = [] /\ shutdown_in h (other r) sid = false.
Proof.
  induction h as [|e t IH]; intros r sid Hr H; [cbn; auto|].
  destruct e; cbn [wkeys writes shutdown_in] in *; try (apply IH; assumption);
    (destruct (_ && _) eqn:K;
     [destruct H; left; apply key_match in K; injection K as -> ->; rewrite other_other by exact Hr; reflexivity|]);
    (apply IH; [exact Hr|intro; apply H; right; assumption]).
Qed.

Lemma has_established_in : forall s h, has_established s h = true -> exists t, In (ConnEstablished s t) h.
Proof.
  intros s. induction h as [|e r IH]; intro H; [discriminate|].
  destruct e; cbn [has_established] in H; try (destruct (IH H) as [t0 I]; exists t0; right; exact I).
  apply orb_true_iff in H. destruct H as [H|H].
  - apply N.eqb_eq in H. subst. exists t. left; reflexivity.
  - destruct (IH H) as [t0 I]. exists t0. right; exact I.
Qed.

Lemma p_live : forall h r sid, r < 2 ->
  streams_ok h = true -> live_ok h = true ->
  reads h r sid = writes h (other r) sid /\
  (shutdown_in h (other r) sid = true -> eos_in h r sid = true).
Proof.
  intros h r sid Hr S L.
  destruct (in_dec key_dec (r, sid) (wkeys h)) as [I|I].
  - unfold live_ok in L. apply andb_true_iff in L as [_ L].
    rewrite forallb_forall in L. specialize (L _ (in_dedup _ _ I)).
    unfold stream_run in L. cbn [fst snd] in L.
    destruct (run (stream_step r sid) ss0 h 0) as [s'|] eqn:R; [|discriminate].
    cbn [complete] in L. destruct (pend s') eqn:P; [|discriminate].
    destruct (stream_run_inv _ _ _ _ _ _ R) as (A & C & D & _).
    cbn [pend shut eos ss0 app orb] in *. rewrite P, app_nil_r in A.
    split; [symmetry; exact A|]. intro Sh. rewrite Sh in C. rewrite C in L. cbn in L. congruence.
  - destruct (not_in_wkeys _ _ _ Hr I) as [W Sd]. rewrite W, Sd.
    destruct (p_streams_prefix h [] r sid) as [[rest P] _]; [rewrite app_nil_r; exact S|].
    rewrite W in P. split; [|discriminate].
    destruct (reads h r sid); [reflexivity|discriminate].
Qed.

Lemma monitor_parts : forall live B h, monitor live B h = true ->
  simple_ok h = true /\ streams_ok h = true /\ dgrams_ok h = true /\ closed_ok h = true /\
  term_ok B h = true /\ (live = true -> live_ok h = true).
Proof.
  intros live B h H. unfold monitor in H. repeat (apply andb_true_iff in H; destruct H as [H ?]).
  repeat (split; [assumption|]). intros ->. assumption.
Qed.
