(* The controller model over every operation history: what the invariants read of a state
   (core_eq), what each handler does to that (one lemma per handler, in terms of the space-level
   passes of Proofs/LossDetect.v), the case principle for one operation (cc_step_cases), what any
   operation does to the clock, the packet numbers and the packets in flight (moves), Invariant A. *)
From Coq Require Import List ZArith Bool Lia.
From GQ Require Import Model.Pto Proofs.NewReno Proofs.LossDetect.
Import ListNotations.
Local Open Scope Z_scope.

Ltac ccbn := cbn [c_reno c_sp c_pto_count c_timer c_pending_burst c_pacer c_need c_server c_hs_key
  c_hs_ack c_hs_conf c_amp c_mad c_mtu c_now c_lastpn c_dead c_panic with_reno_sp with_timer
  with_pto_count with_need with_pacer with_flags with_now with_lastpn with_dead fst snd
  s_la s_tolae s_loss_time s_sent s_mad].

Definition op_ok (o : cc_op) : Prop :=
  match o with
  | OpAdv dt => 0 <= dt
  | OpSent e _ _ _ _ => In e epochs
  | OpAck e _ _ => In e epochs
  | _ => True
  end.

(* every state the controller can be in: any role, any positive MTU, any max_ack_delay, any list of
   operations, any values of the RTT-filter inputs at every step *)
Inductive reach : cc -> Prop :=
| reach0 server mtu mad : 0 < mtu -> 0 <= mad -> reach (cc_new server mtu mad)
| reachS c ri o : reach c -> op_ok o -> reach (fst (cc_step c ri o)).

(* the part of the state the invariants read: the controller, the three spaces, the MTU, the clock
   and the last packet numbers.  The timer, the PTO count, the probe requests, the pacer and the
   handshake flags are outside it. *)
Definition core_eq (c c' : cc) : Prop :=
  c_reno c' = c_reno c /\ (forall x, c_sp c' x = c_sp c x) /\ c_mtu c' = c_mtu c /\
  c_now c' = c_now c /\ c_lastpn c' = c_lastpn c.

Lemma core_eq_refl c : core_eq c c.
Proof. repeat split. Qed.

Lemma sldt_timer c ri : exists t p, set_loss_detection_timer c ri = with_timer c t p.
Proof.
  unfold set_loss_detection_timer.
  destruct (get_loss_time_and_epoch c) as [[t e]|]; [do 2 eexists; reflexivity|].
  destruct (c_amp c); [do 2 eexists; reflexivity|].
  destruct (all_no_elic c && peer_completed c); [do 2 eexists; reflexivity|].
  destruct (get_pto_time_and_epoch c ri) as (r, p). do 2 eexists; reflexivity.
Qed.

Ltac sldt :=
  match goal with |- context [set_loss_detection_timer ?x ?ri] =>
    let t := fresh "tm" in let p := fresh "pf" in destruct (sldt_timer x ri) as (t & p & ->)
  end.

Lemma fset_ext (c c' : cc) e s :
  (forall x, (x =? e) = false -> c_sp c' x = c_sp c x) -> c_sp c' e = s ->
  forall x, c_sp c' x = fset (c_sp c) e s x.
Proof. intros H1 H2 x. unfold fset. destruct (x =? e) eqn:E; [apply Z.eqb_eq in E; now subst|now apply H1]. Qed.

Lemma on_packet_sent_core c ri e pn elic infl bytes :
  exists s, s_sent s = s_sent (c_sp c e) ++ [mkpkt pn (c_now c) elic infl bytes Inflight] /\
    core_eq (with_reno_sp c (if infl then on_packet_sent_cc (c_reno c) bytes else c_reno c) e s)
            (on_packet_sent c ri e pn elic infl bytes).
Proof.
  (* the flags first: unfolding before they are known multiplies the timer call *)
  destruct infl; [destruct elic|]; unfold on_packet_sent, core_eq; ccbn; try sldt; ccbn; unfold fset.
  (* the space is read off the [c_sp] conjunct; its packet list then needs (e =? e) = true *)
  all: eexists; split; [|split; [reflexivity|split; [intro x; destruct (x =? e); reflexivity|repeat split]]].
  all: ccbn; rewrite ?Z.eqb_refl; reflexivity.
Qed.

Lemma discard_epoch_core c ri e :
  core_eq (with_reno_sp c (snd (space_discard (c_sp c e) (c_reno c))) e
                        (fst (space_discard (c_sp c e) (c_reno c))))
          (discard_epoch c ri e).
Proof. unfold discard_epoch, space_discard. sldt. repeat split. Qed.

Lemma cc_on_ack_core {c ri e largest cev rs c' lost pers} :
  cc_on_ack c ri e largest cev rs = (c', lost, pers) ->
  exists s r, ack_pass (c_sp c e) (c_reno c) (i_ld ri) (c_now c) e largest cev rs = (s, r, lost, pers) /\
              core_eq (with_reno_sp c r e s) c'.
Proof.
  unfold ack_pass, cc_on_ack.
  destruct (space_on_ack (update_la (c_sp c e) largest) (c_reno c) rs) as [[s1 r1] res].
  destruct res as [[el [ln lt]]|]; [destruct (detect_lost s1 _ _ _) as [[[s2 r3] l] p]; sldt|];
    intro H; injection H as <- <- <-; do 2 eexists; (split; [reflexivity|]);
    try destruct (peer_completed _); repeat split.
Qed.

Lemma loss_time_min_in c es best t e :
  loss_time_min c es best = Some (t, e) -> In e es \/ exists t0, best = Some (t0, e).
Proof.
  revert best. induction es as [|x rest IH]; intros best H; cbn [loss_time_min] in H; [right; now exists t|].
  (* the search goes on over the tail with x as the candidate, or with [best] unchanged *)
  assert (Hx : forall tx, loss_time_min c rest (Some (tx, x)) = Some (t, e) ->
                 In e (x :: rest) \/ exists t0, best = Some (t0, e)).
  { intros tx Hm. destruct (IH _ Hm) as [Hin|(t0 & E)]; [left; now right|]. inversion E. left; now left. }
  assert (Hb : loss_time_min c rest best = Some (t, e) -> In e (x :: rest) \/ exists t0, best = Some (t0, e)).
  { intros Hm. destruct (IH _ Hm) as [Hin|E]; [left; now right|now right]. }
  destruct (s_loss_time (c_sp c x)) as [tx|]; [|exact (Hb H)].
  destruct best as [[bt be]|]; [|exact (Hx tx H)].
  destruct (tx <? bt); [exact (Hx tx H)|exact (Hb H)].
Qed.

Lemma get_loss_epoch c t e : get_loss_time_and_epoch c = Some (t, e) -> In e epochs.
Proof. intro H. destruct (loss_time_min_in c epochs None t e H) as [Hin|(t0 & E)]; [exact Hin|discriminate]. Qed.

Lemma timeout_core {c ri c' lost pers} :
  on_loss_detection_timeout c ri = (c', lost, pers) ->
  (exists e s r lost0, In e epochs /\
     detect_lost (c_sp c e) (c_reno c) (i_ld ri) (c_now c) = (s, r, lost0, pers) /\
     lost = map (fun pn => (e, pn)) lost0 /\ core_eq (with_reno_sp c r e s) c') \/
  (lost = [] /\ pers = false /\ core_eq c c').
Proof.
  unfold on_loss_detection_timeout. destruct (get_loss_time_and_epoch c) as [[t e]|] eqn:Eg.
  - destruct (detect_lost _ _ _ _) as [[[s r] l] p] eqn:Ed. sldt. intro H; injection H as <- <- <-.
    left. exists e, s, r, l. split; [exact (get_loss_epoch c t e Eg)|]. split; [exact Ed|repeat split].
  - sldt. intro H; injection H as <- <- <-. right. split; [reflexivity|]. split; [reflexivity|].
    destruct (all_no_elic c); [repeat split|].
    destruct (get_pto_time_and_epoch c ri) as (r, q). destruct r as [[t0 e]|]; repeat split.
Qed.

Lemma in_report {e e0 pn : Z} {lost : list Z} :
  In (e, pn) (map (fun pn => (e0, pn)) lost) -> e = e0 /\ In pn lost.
Proof.
  intro H. apply in_map_iff in H. destruct H as (pn0 & Hq & Hin). injection Hq as <- <-. now split.
Qed.

Lemma sent_ok_spec {c e pn elic infl bytes} :
  sent_ok c e pn elic infl bytes = true -> c_lastpn c e < pn /\ 0 <= bytes.
Proof.
  unfold sent_ok. intro H. apply andb_true_iff in H. destruct H as (H & _).
  apply andb_true_iff in H. destruct H as (H & _). apply andb_true_iff in H. destruct H as (H1 & H2).
  split; [now apply Z.ltb_lt|now apply Z.leb_le].
Qed.

(* To establish R of the state and the report of an operation it is enough to establish it for the
   handler the operation calls (for an ACK and an expired timer: for the space-level pass the handler
   runs), provided R reads the state only through the core and survives the discard of the Initial
   space that ArcCC appends to a Handshake send / ACK.  The pacer and TooManyPtos bookkeeping of
   Tick and Quota disappears here once and for all. *)
Lemma cc_step_cases (R : cc -> list (Z * Z) -> bool -> Prop) c ri o :
  (forall c1 c2 l p, core_eq c1 c2 -> R c1 l p -> R c2 l p) ->
  (forall c1 l p e, In e epochs -> R c1 l p -> R (discard_epoch c1 ri e) l p) ->
  R c [] false ->
  (forall dt, o = OpAdv dt -> R (with_now c (c_now c + dt)) [] false) ->
  (forall e pn elic infl bytes, o = OpSent e pn elic infl bytes -> c_lastpn c e < pn -> 0 <= bytes ->
     R (on_packet_sent (with_lastpn c e pn) ri e pn elic infl bytes) [] false) ->
  (forall e cev rs s r lost pers, o = OpAck e cev rs -> ack_ok rs = true ->
     ack_pass (c_sp c e) (c_reno c) (i_ld ri) (c_now c) e (fst (hd (0, 0) rs)) cev rs = (s, r, lost, pers) ->
     R (with_reno_sp c r e s) (map (fun pn => (e, pn)) lost) pers) ->
  (forall e s r lost pers, o = OpTick -> In e epochs ->
     detect_lost (c_sp c e) (c_reno c) (i_ld ri) (c_now c) = (s, r, lost, pers) ->
     R (with_reno_sp c r e s) (map (fun pn => (e, pn)) lost) pers) ->
  R (fst (cc_step c ri o)) (o_lost (snd (cc_step c ri o))) (o_pers (snd (cc_step c ri o))).
Proof.
  intros Hf Hd H0 Hadv Hsent Hack Hdet. assert (E0 : In 0 epochs) by (cbn; auto).
  assert (Hq : forall c1 l p, R c1 l p ->
            R (fst (let '(c2, q) := cc_send_quota c1 ri in
                    (if c_mtu c2 <=? q then with_pacer c2 (c_pacer c2) false else c2, mkout 1 0 l p))) l p).
  { intros c1 l p H. unfold cc_send_quota. destruct (pacer_schedule _ _ _ _ _) as (pc, q). cbn [fst].
    destruct (c_mtu _ <=? _); revert H; apply Hf; repeat split. }
  destruct o; cbn [cc_step].
  - destruct (sent_ok c e pn elic infl bytes) eqn:Es; [|exact H0].
    destruct (sent_ok_spec Es) as (Hpn & Hb). specialize (Hsent _ _ _ _ _ eq_refl Hpn Hb).
    cbn [fst snd o_lost o_pers]. destruct (_ && _); [now apply Hd|exact Hsent].
  - destruct (ack_ok rs) eqn:Ek; [|exact H0].
    destruct (cc_on_ack c ri e (fst (hd (0, 0) rs)) cev rs) as [[c1 lost] pers] eqn:Ea.
    destruct (cc_on_ack_core Ea) as (s & r & Ep & Hc).
    pose proof (Hf _ _ _ _ Hc (Hack _ _ _ _ _ _ _ eq_refl Ek Ep)) as X.
    cbn [fst snd o_lost o_pers]. destruct (_ && _); [now apply Hd|exact X].
  - now apply Hadv.
  - destruct (match c_timer c with Some t => t <=? c_now c | None => false end).
    + destruct (on_loss_detection_timeout c ri) as [[c1 lost] pers] eqn:Et.
      assert (Htick : R c1 lost pers).
      { destruct (timeout_core Et) as [(e & s & r & lost0 & He & Ed & -> & Hc)|(-> & -> & Hc)];
          [exact (Hf _ _ _ _ Hc (Hdet _ _ _ _ _ eq_refl He Ed))|exact (Hf _ _ _ _ Hc H0)]. }
      cbn [andb].
      destruct (6 <? c_pto_count c1); [revert Htick; apply Hf; repeat split|].
      destruct (c_pending_burst c1); [|exact Htick]. specialize (Hq _ _ _ Htick).
      destruct (cc_send_quota c1 ri) as (c2, q). exact Hq.
    + cbn [andb]. destruct (c_pending_burst c); [|exact H0]. specialize (Hq _ _ _ H0).
      destruct (cc_send_quota c ri) as (c2, q). exact Hq.
  - destruct (which =? 0); [|destruct (which =? 1)]; revert H0; apply Hf; repeat split.
  - destruct ((0 <=? e) && (e <=? 1)) eqn:Ee; [|exact H0].
    apply andb_true_iff in Ee. destruct Ee as (E1 & E2). apply Z.leb_le in E1, E2.
    apply Hd; [|exact H0]. assert (e = 0 \/ e = 1) by lia. cbn. intuition.
  - unfold cc_send_quota. destruct (pacer_schedule _ _ _ _ _) as (pc, q). ccbn.
    destruct (c_mtu c <=? _); cbn [fst snd o_lost o_pers]; revert H0; apply Hf; repeat split.
  - revert H0. apply Hf; repeat split.
  - exact H0.
Qed.

(* what any operation does to what the clock and packet-state invariants read: a packet comes into
   flight only by being sent, numbered above the last number of its space and stamped with the clock *)
Definition moves (o : cc_op) (c c' : cc) : Prop :=
  (op_ok o -> c_now c <= c_now c') /\ (forall x, c_lastpn c x <= c_lastpn c' x) /\
  forall x q, In q (s_sent (c_sp c' x)) -> is_inflight q = true ->
    In q (s_sent (c_sp c x)) \/ (c_lastpn c x < p_pn q /\ p_time q <= c_now c').

Lemma moves_refl o c : moves o c c.
Proof. split; [lia|]. split; [lia|]. intros x q Hq _. now left. Qed.

Lemma moves_frame {o c c1 c2} : core_eq c1 c2 -> moves o c c1 -> moves o c c2.
Proof.
  intros (_ & B & _ & N' & L') (N & L & Q). unfold moves. rewrite N', L'.
  split; [exact N|]. split; [exact L|]. intros x q. rewrite B. apply Q.
Qed.

Lemma moves_pass {o c c1 e s r} :
  moves o c c1 -> infl_incl (s_sent s) (s_sent (c_sp c1 e)) -> moves o c (with_reno_sp c1 r e s).
Proof.
  intros (N & L & Q) H. split; [exact N|]. split; [exact L|].
  intros x q. ccbn. unfold fset. intros Hq Hi. apply (Q x q); [|exact Hi].
  destruct (x =? e) eqn:Ex; [apply Z.eqb_eq in Ex; subst x; now apply H|exact Hq].
Qed.

Lemma moves_discard {o c c1} ri e : moves o c c1 -> moves o c (discard_epoch c1 ri e).
Proof. intro H. refine (moves_frame (discard_epoch_core c1 ri e) (moves_pass H _)). intros q []. Qed.

Lemma step_moves c ri o : moves o c (fst (cc_step c ri o)).
Proof.
  pose proof (moves_refl o c) as H0.
  apply (cc_step_cases (fun c1 _ _ => moves o c c1)); cbn beta.
  - intros c1 c2 _ _. apply moves_frame.
  - intros c1 _ _ e _. apply moves_discard.
  - exact H0.
  - intros dt ->. split; [cbn [op_ok]; ccbn; lia|]. split; [intro; ccbn; lia|]. intros x q Hq _. now left.
  - intros e pn elic infl bytes _ Hpn _.
    destruct (on_packet_sent_core (with_lastpn c e pn) ri e pn elic infl bytes) as (s & Hs & _ & B & _ & N & L).
    unfold moves. rewrite N, L. ccbn. unfold fset. split; [lia|]. split.
    + intro x. destruct (x =? e) eqn:Ex; [apply Z.eqb_eq in Ex; subst x|]; lia.
    + intros x q. rewrite B. ccbn. unfold fset. destruct (x =? e) eqn:Ex; [|now left].
      apply Z.eqb_eq in Ex; subst x. rewrite Hs. intros Hq _.
      apply in_app_or in Hq. destruct Hq as [Hq|[<-|[]]]; [now left|right; cbn; lia].
  - intros e cev rs s r lost pers _ _ Ep.
    exact (moves_pass H0 (proj1 (ack_pass_states Ep))).
  - intros e s r lost pers _ _ Ed.
    exact (moves_pass H0 (proj1 (detect_lost_states Ed))).
Qed.

Definition total_flight (c : cc) : Z :=
  flight (s_sent (c_sp c 0)) + flight (s_sent (c_sp c 1)) + flight (s_sent (c_sp c 2)).

Definition InvA (c : cc) : Prop :=
  reno_ok (c_mtu c) (c_reno c) /\ bif (c_reno c) = total_flight c /\ r_sat (c_reno c) = false /\
  (forall e, sizes_ok (s_sent (c_sp c e))).

Lemma InvA_frame {c c'} : core_eq c c' -> InvA c -> InvA c'.
Proof.
  intros (A & B & C & _) (H1 & H2 & H3 & H4). unfold InvA, total_flight. rewrite A, C, !B.
  split; [exact H1|]. split; [exact H2|]. split; [exact H3|]. intro x. rewrite B. apply H4.
Qed.

Lemma InvA_space c e : In e epochs -> InvA c ->
  space_ok (c_mtu c) (total_flight c - flight (s_sent (c_sp c e))) (s_sent (c_sp c e)) (c_reno c).
Proof.
  intros He (H1 & H2 & H3 & H4). split; [exact H1|]. split; [exact H3|]. split; [apply H4|].
  rewrite H2. unfold total_flight.
  pose proof (flight_nonneg _ (H4 0)). pose proof (flight_nonneg _ (H4 1)). pose proof (flight_nonneg _ (H4 2)).
  destruct He as [<-|[<-|[<-|[]]]]; lia.
Qed.

Lemma InvA_pass {c e s r c'} :
  In e epochs -> InvA c ->
  space_ok (c_mtu c) (total_flight c - flight (s_sent (c_sp c e))) (s_sent s) r ->
  core_eq (with_reno_sp c r e s) c' -> InvA c'.
Proof.
  intros He (_ & _ & _ & H4) (Hr & Hs & Hz & _ & Hb) Hc. apply (InvA_frame Hc).
  unfold InvA, total_flight. ccbn. unfold fset.
  split; [exact Hr|]. split; [|split; [exact Hs|]].
  - rewrite Hb. unfold total_flight.
    destruct He as [<-|[<-|[<-|[]]]]; cbn [Z.eqb Pos.eqb]; lia.
  - intro x. destruct (x =? e); [exact Hz|apply H4].
Qed.

Lemma InvA_init server mtu mad : 0 < mtu -> InvA (cc_new server mtu mad).
Proof.
  intro H. unfold InvA, total_flight, cc_new. ccbn.
  split; [now apply reno_new_ok|]. split; [reflexivity|]. split; [reflexivity|].
  intro e. destruct (e =? 2); constructor.
Qed.

Lemma InvA_sent c ri e pn elic infl bytes :
  In e epochs -> 0 <= bytes -> InvA c -> InvA (on_packet_sent c ri e pn elic infl bytes).
Proof.
  intros He Hb H. destruct (on_packet_sent_core c ri e pn elic infl bytes) as (s & Hs & Hc).
  refine (InvA_pass He H _ Hc). rewrite Hs. exact (space_sent_ok (InvA_space c e He H) Hb).
Qed.

Lemma InvA_step c ri o : op_ok o -> InvA c -> InvA (fst (cc_step c ri o)).
Proof.
  intros Ho H. apply (cc_step_cases (fun c1 _ _ => InvA c1)); cbn beta.
  - intros c1 c2 _ _. apply InvA_frame.
  - intros c1 _ _ e He H1.
    exact (InvA_pass He H1 (space_discard_ok (InvA_space c1 e He H1)) (discard_epoch_core c1 ri e)).
  - exact H.
  - intros dt _. exact H.
  - intros e pn elic infl bytes -> _ Hb. now apply InvA_sent.
  - intros e cev rs s r lost pers -> _ Ep.
    exact (InvA_pass Ho H (proj1 (ack_pass_ok Ep (InvA_space c e Ho H))) (core_eq_refl _)).
  - intros e s r lost pers _ He Ed.
    exact (InvA_pass He H (proj1 (detect_lost_ok Ed (InvA_space c e He H))) (core_eq_refl _)).
Qed.

Theorem reach_InvA c : reach c -> InvA c.
Proof. induction 1; [now apply InvA_init|now apply InvA_step]. Qed.

Lemma reach_mtu c : reach c -> 0 < c_mtu c.
Proof. intro H. now destruct (reach_InvA c H) as ((_ & M & _) & _). Qed.
