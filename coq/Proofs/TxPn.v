(* Proofs about the packet writers of qconnection/src/tx.rs (Model/TxPn.v): the guard discipline
   that c07_unique assumes is derived for both writers, and with it the uniqueness of packet
   numbers over every interleaving of tx::PacketWriter lives, tx::TrivialPacketWriter lives and
   SentRotateGuard calls on one journal. *)
From Coq Require Import List ZArith Bool Lia.
From GQ Require Import Model.SentJournal Model.TxPn Proofs.SentJournal.
Import ListNotations.
Local Open Scope Z_scope.

(* what the frame walk keeps true of (recorded frames, trivial flag, something written): nothing written,
   nothing recorded; a TrivialPacketWriter that wrote recorded no frame and called record_trivial; a
   PacketWriter that wrote recorded a frame or called record_trivial *)
Definition walk_inv (trivw : bool) (rec : list Z) (triv wr : bool) : Prop :=
  if wr then (if trivw then rec = [] /\ triv = true else triv = true \/ rec <> [])
  else rec = [] /\ triv = false.

Lemma tx_walk_inv : forall trivw ty fr rem rec triv wr rec' triv' wr',
  walk_inv trivw rec triv wr ->
  tx_walk trivw ty fr rem rec triv wr = WDone rec' triv' wr' ->
  walk_inv trivw rec' triv' wr'.
Proof.
  intros trivw ty fr. induction fr as [|[k v] r IH]; cbn [tx_walk]; intros rem rec triv wr rec' triv' wr' W H.
  - injection H as <- <- <-. exact W.
  - destruct (rem <? fsize k v); [eapply IH; eauto|].
    destruct (trivw && negb (nonacke k)); [discriminate|].
    destruct (negb (belongs ty k)); [discriminate|].
    (* a frame is written: recorded by a PacketWriter if it is reliable, else (and always by a
       TrivialPacketWriter) counted as trivial *)
    destruct trivw; [|destruct (reliable ty k)]; (eapply IH; [|exact H]); unfold walk_inv in *.
    + split; [|reflexivity]. destruct wr; apply W.
    + right. destruct rec; discriminate.
    + left. reflexivity.
Qed.

Lemma p_c07_tx_discipline : forall trivw ty bufsz retran expire fr w sc,
  tx_script trivw ty bufsz retran expire fr w = Some sc ->
  disciplined sc /\
  (np_mode_ sc = NpBuildTrivial -> trivw = true /\ np_frames sc = [] /\ np_trivial sc = true) /\
  (trivw = true -> np_mode_ sc <> NpBuildTime).
Proof.
  intros trivw ty bufsz retran expire fr w sc. unfold tx_script.
  destruct (bufsz <? hdr_len ty + 20).
  - intros [= <-]. unfold disciplined; cbn. split; [reflexivity|]. split; [discriminate|]. intros _; discriminate.
  - destruct (tx_walk trivw ty fr (bufsz - 16 - hdr_len ty - w) [] false false) as [|rec triv wr] eqn:E; [discriminate|].
    assert (W : walk_inv trivw rec triv wr) by (eapply tx_walk_inv; [|exact E]; split; reflexivity).
    intros [= <-]. unfold disciplined, walk_inv in *. cbn [np_mode_ np_frames np_trivial].
    destruct wr; [destruct trivw|].
    + split; [exact I|]. split; [intros _; split; [reflexivity|exact W] | discriminate].
    + split; [exact W|]. split; discriminate.
    + split; [apply W|]. split; discriminate.
Qed.

(* consequence: the assertions of NewPacketGuard::build_trivial never fire under TrivialPacketWriter, the
   only outcomes of a writer life that poison the journal are the debug assertions on the frames
   and the exhaustion of the packet-number space *)
Lemma p_c07_tx_trivial_safe : forall ty bufsz retran expire fr w sc j now,
  tx_script true ty bufsz retran expire fr w = Some sc ->
  s_next j <= SLIMIT -> encode (s_next j) (s_la j) <> EncPanic -> encode (s_next j) (s_la j) <> EncOverflow ->
  exists j' pe c, new_packet j now sc = (Some j', pe, c).
Proof.
  intros ty bufsz retran expire fr w sc j now H L E1 E2.
  destruct (p_c07_tx_discipline _ _ _ _ _ _ _ _ H) as (D & T & NB).
  unfold new_packet, push_rec. destruct (encode (s_next j) (s_la j)) eqn:E; try congruence.
  assert (SLIMIT <? s_next j = false) as -> by (apply Z.ltb_ge; lia).
  destruct (np_mode_ sc) eqn:M.
  - exfalso. exact (NB eq_refl eq_refl).
  - destruct (T eq_refl) as (_ & F & Tr). rewrite F, Tr. cbn. eauto.
  - eauto.
Qed.

(* histories at the level of tx.rs: whole lives of one of the two writers, and the calls of
   SentRotateGuards as in [sev] *)
Inductive txev :=
| TxWriter (now : Z) (trivw : bool) (ty bufsz retran expire : Z) (fr : list (Z * Z))
| TxRotate (e : sev).

(* the guard-level step a tx-level step performs in journal state [j]; None = the writer panicked
   (journal poisoned: the history ends) *)
Definition tx_sev (j : sjournal) (e : txev) : option sev :=
  match e with
  | TxWriter now trivw ty bufsz retran expire fr =>
      match encode (s_next j) (s_la j) with
      | EncOk en =>
          match tx_script trivw ty bufsz retran expire fr (width en) with
          | Some sc => Some (EvNew now sc)
          | None => None
          end
      | _ => None
      end
  | TxRotate (EvNew _ _) => None
  | TxRotate e' => Some e'
  end.

Fixpoint tx_lower (j : sjournal) (all : list (list Z)) (h : list txev) : list sev :=
  match h with
  | [] => []
  | e :: r =>
      match tx_sev j e with
      | None => []
      | Some se =>
          se :: match ev_step j all se with
                | Some (j', all', _) => tx_lower j' all' r
                | None => []
                end
      end
  end.

(* packet numbers of the packets that left encrypt_and_protect_packet of either writer *)
Definition tx_emitted (j : sjournal) (all : list (list Z)) (h : list txev) : list Z :=
  emitted_pns j all (tx_lower j all h).

Lemma tx_sev_ok : forall j e se, tx_sev j e = Some se -> ev_ok se.
Proof.
  intros j e se. destruct e as [now trivw ty bufsz retran expire fr|e']; cbn [tx_sev].
  - destruct (encode (s_next j) (s_la j)) as [en| |]; try discriminate.
    destruct (tx_script trivw ty bufsz retran expire fr (width en)) as [sc|] eqn:E; [|discriminate].
    intros [= <-]. exact (proj1 (p_c07_tx_discipline _ _ _ _ _ _ _ _ E)).
  - destruct e'; try discriminate; intros [= <-]; exact I.
Qed.

Lemma tx_lower_ok : forall h j all, Forall ev_ok (tx_lower j all h).
Proof.
  induction h as [|e r IH]; intros j all; cbn [tx_lower]; [constructor|].
  destruct (tx_sev j e) as [se|] eqn:E; [|constructor].
  constructor; [exact (tx_sev_ok _ _ _ E)|]. destruct (ev_step j all se) as [[[j' all'] out]|]; [apply IH | constructor].
Qed.
