(* C04 — proofs about the connection-ID cost models (Model/C04Cid.v).
   RemoteCids: the cost functions are tied to the shared model Model.RemoteCid (variant of the
   repaired code, `recv_new_cid no_pre post_count`): the deque it builds has exactly the cells the
   arithmetic counts, the frames it queues are exactly the counted ones plus those of
   CidCell::assign, and the cost is bounded from below (from above in Properties/C04.v) and by no
   linear function of frame bytes and state.
   LocalCids: the two limit clauses, and the list facts the bounds of Properties/C04.v rest on. *)
From Coq Require Import List ZArith NArith Lia.
From GQ Require Import Lib.Base Lib.Slice Model.RemoteCid Proofs.LocalCid Proofs.RemoteCid Model.C04Cid.
Import ListNotations.

Local Open Scope N_scope.

Lemma lenN_nrange a b : lenN (nrange a b) = b - a.
Proof. unfold nrange, lenN. rewrite nseq_length. lia. Qed.

Lemma filter_len_le {A} (f : A -> bool) l : (length (filter f l) <= length l)%nat.
Proof. induction l as [|x r IH]; cbn; [lia|]. destruct (f x); cbn; lia. Qed.

Lemma cell_assign_count : forall c seq id c' fr,
  cell_assign c seq id = (c', fr) -> lenN (a_alloc c') + lenN fr = lenN (a_alloc c) + 1.
Proof.
  intros c seq id c' fr H. unfold cell_assign in H. destruct (a_using c).
  - inversion H; subst. cbn [a_alloc]. unfold lenN. cbn [length]. lia.
  - cbn [trim] in H. inversion H; subst. cbn [a_alloc]. unfold lenN.
    rewrite map_length, rev_length. cbn [length]. lia.
Qed.

Lemma live_in_range : forall cells p, a_retired (get_cell cells p) = false -> (p < length cells)%nat.
Proof.
  intros cells p H. destruct (Nat.lt_ge_cases p (length cells)) as [L|G]; [assumption|].
  unfold get_cell in H. rewrite nth_overflow in H by assumption. discriminate.
Qed.

Lemma allocs_upd : forall cells p c', (p < length cells)%nat ->
  allocs (upd cells p c') + lenN (a_alloc (get_cell cells p)) = allocs cells + lenN (a_alloc c').
Proof.
  induction cells as [|c r IH]; intros p c' H; [cbn in H; lia|].
  destruct p as [|p]; cbn [upd allocs get_cell nth].
  - lia.
  - cbn [length] in H. specialize (IH p c' ltac:(lia)). unfold get_cell in IH. lia.
Qed.

(* arrange_idle_cid: every pending cell is looked at at most once; what CidCell::assign queues
   is paid for by the connection IDs the cells held *)
Lemma arrange_count : forall s s' fr, arrange s = (s', fr) ->
  lenN (r_ready s') + lenN (r_pending s') <= lenN (r_ready s) + lenN (r_pending s) /\
  allocs (r_cells s') + lenN fr + lenN (r_ready s) = allocs (r_cells s) + lenN (r_ready s').
Proof.
  intros s s' fr H.
  refine (proj1 (arrange_rule (fun t em =>
    lenN (r_ready t) + lenN (r_pending t) <= lenN (r_ready s) + lenN (r_pending s) /\
    allocs (r_cells t) + lenN em + lenN (r_ready s) = allocs (r_cells s) + lenN (r_ready t)) _ _ s [] s' fr _ H)).
  - intros [co ci ro rd [|q pd] li cu ce] em p HQ Hp _; [discriminate|].
    cbn [skip_turn tl r_ready r_pending r_cells] in *. rewrite lenN_cons in HQ. lia.
  - intros [co ci ro rd [|q pd] li cu ce] em p seq id c' f HQ Hp ER _ EA; [discriminate|].
    cbn [assign_turn tl r_ready r_pending r_cells] in *. apply cell_assign_count in EA.
    pose proof (allocs_upd ce p c' (live_in_range _ _ ER)) as HU.
    rewrite !lenN_app, !lenN_cons, lenN_nil in *. lia.
  - change (lenN []) with 0. lia.
Qed.

Lemma rpt_count : forall s tomb s' fr, retire_prior_to s tomb = (s', fr) ->
  lenN fr = rc_gap_frames s tomb /\
  lenN (r_ready s') + rc_popped s tomb = lenN (r_ready s) /\
  lenN (r_pending s') <= lenN (r_pending s) + rc_popped s tomb /\
  r_cells s' = r_cells s.
Proof.
  intros s tomb s' fr H. unfold rc_gap_frames, rc_popped, rc_retires, rc_applied.
  rewrite rpt_eq in H. destruct (N.ltb_spec (r_roff s) tomb) as [Hgt|Hle]; inversion H; subst s' fr; clear H.
  - cbn [r_ready r_pending r_cells].
    set (k := N.min _ tomb - r_roff s).
    assert (lenN (live_of (r_cells s) (takeN k (r_ready s))) <= k <= lenN (r_ready s)).
    { pose proof (filter_len_le (fun p => negb (a_retired (get_cell (r_cells s) p))) (takeN k (r_ready s))) as HF.
      pose proof (lenN_takeN k (r_ready s)) as HT. unfold live_of, k, lenN in *. lia. }
    clearbody k. rewrite lenN_nrange, lenN_dropN, lenN_app. repeat split; lia.
  - change (lenN []) with 0. repeat split; lia.
Qed.

Lemma rc_recv_eq : forall s seq rpt,
  rc_recv s seq rpt =
    if rc_discards s seq then (s, [], NDiscarded)
    else let '(s3, fr) := processed s seq rpt seq in
         (s3, fr, if r_limit s <? active s3 then NErrLimit else NAccepted).
Proof. intros. apply recv_count_spec. Qed.

Section Received.
  Variables (s : rcids) (seq rpt : N) (s' : rcids) (fr : list N) (res : newcid_res).
  Hypothesis HD : rc_discards s seq = false.
  Hypothesis H : rc_recv s seq rpt = (s', fr, res).

  Lemma rc_recv_processed :
    processed s seq rpt seq = (s', fr) /\ res = (if r_limit s <? active s' then NErrLimit else NAccepted).
  Proof.
    pose proof H as E. rewrite rc_recv_eq, HD in E.
    destruct (processed s seq rpt seq) as [s3 fr3]. injection E as <- <- <-. auto.
  Qed.

  Lemma rc_recv_deque :
    r_coff s' = rc_coff_after s seq rpt /\
    lenN (r_cids s') = rc_len_ins s seq - rc_drained s seq rpt /\
    rc_drained s seq rpt <= rc_len_ins s seq.
  Proof.
    pose proof HD as Hge. apply N.ltb_ge in Hge.
    destruct (processed_deque _ _ _ _ _ _ Hge (proj1 rc_recv_processed)) as (D1 & D2 & D3 & _).
    change (r_coff s' = rc_coff_after s seq rpt) in D1. fold (rc_len_ins s seq) in D3.
    unfold rc_drained. rewrite <- D1. repeat split; lia.
  Qed.

  Lemma rc_recv_counts :
    rc_gap_frames s rpt <= lenN fr /\
    lenN fr + allocs (r_cells s') + lenN (r_ready s) =
      rc_gap_frames s rpt + allocs (r_cells s) + lenN (r_ready s') + rc_popped s rpt /\
    lenN (r_ready s') + lenN (r_pending s') <= lenN (r_ready s) + lenN (r_pending s) /\
    rc_popped s rpt <= lenN (r_ready s).
  Proof.
    destruct (processed_stages _ _ _ _ _ _ (proj1 rc_recv_processed)) as (s2 & f1 & f2 & E2 & E3 & E).
    destruct (arrange_count _ _ _ E3) as (B3 & B4).
    destruct (rpt_count _ _ _ _ E2) as (C1 & C2 & C3 & C4).
    change (rc_gap_frames (inserted s seq seq) rpt) with (rc_gap_frames s rpt) in C1.
    change (rc_popped (inserted s seq seq) rpt) with (rc_popped s rpt) in C2, C3.
    cbn [inserted r_ready r_pending r_cells] in *.
    rewrite E, lenN_app, C4 in *. repeat split; lia.
  Qed.
End Received.

Lemma rc_len_ins_gap : forall s seq, rc_discards s seq = false ->
  rc_len_ins s seq = lenN (r_cids s) + rc_gap s seq + (if rc_end s <=? seq then 1 else 0).
Proof.
  intros s seq H. unfold rc_discards in H. apply N.ltb_ge in H. unfold rc_len_ins, rc_gap, rc_end.
  destruct (N.leb_spec (r_coff s + lenN (r_cids s)) seq); lia.
Qed.

Lemma rc_gap_frames_le : forall s rpt, rc_gap_frames s rpt <= rpt - r_roff s.
Proof. intros. unfold rc_gap_frames, rc_applied. destruct (rc_retires s rpt); lia. Qed.

Lemma p_c04_new_cid_cost_lower : forall s seq rpt, rc_discards s seq = false ->
  rc_gap s seq + rc_gap_frames s rpt <= rc_new_cost s seq rpt.
Proof.
  intros s seq rpt HD. unfold rc_new_cost. rewrite HD.
  destruct (rc_recv s seq rpt) as [[s' fr] res] eqn:E.
  pose proof (proj1 (rc_recv_counts _ _ _ _ _ _ HD E)). lia.
Qed.

Lemma active_le_len : forall s, active s <= lenN (r_cids s).
Proof. intros. unfold active, lenN. pose proof (count_some_len _ (r_cids s)). lia. Qed.

Lemma rc_init_2 : rc_init 2 = mkR 0 [Some (0, 0)] 0 [0%nat] [] 2 1 [mkCell [(0, 0)] false false].
Proof. reflexivity. Qed.

(* REFUTED: no linear bound in frame bytes + tracked state (a NEW_CONNECTION_ID frame is at most
   1 + 8 + 8 + 1 + 20 + 16 = 54 bytes; the fresh state holds 3 cells), for frames the count-based
   limit ACCEPTS: one active connection ID is left *)
Lemma p_c04_new_cid_cost_refuted : forall c c', exists seq rpt,
  rpt <= seq /\
  (let '(s', fr, res) := rc_recv (rc_init 2) seq rpt in
   res = NAccepted /\ active s' <= 1 /\ c * (54 + rc_size (rc_init 2)) + c' < lenN fr) /\
  c * (54 + rc_size (rc_init 2)) + c' < rc_new_cells (rc_init 2) seq /\
  c * (54 + rc_size (rc_init 2)) + c' < rc_new_cost (rc_init 2) seq rpt.
Proof.
  intros c c'. generalize (c * (54 + rc_size (rc_init 2)) + c'). intros m.
  exists (m + 3), (m + 3). remember (m + 3) as n eqn:HN. split; [lia|].
  assert (H0 : rc_discards (rc_init 2) n = false /\ rc_gap (rc_init 2) n = n - 1 /\
               rc_gap_frames (rc_init 2) n = n - 1 /\ rc_len_ins (rc_init 2) n - rc_drained (rc_init 2) n n = 1).
  { unfold rc_discards, rc_gap, rc_end, rc_gap_frames, rc_drained, rc_coff_after, rc_retires, rc_applied, rc_len_ins.
    rewrite rc_init_2. cbn [r_coff r_cids r_roff r_ready]. change (lenN [Some (0, 0)]) with 1. change (lenN [0%nat]) with 1.
    destruct (N.ltb_spec n 0); [lia|]. destruct (N.ltb_spec 0 n); [|lia]. repeat split; lia. }
  destruct H0 as (HD & HG & HF & HL).
  pose proof (p_c04_new_cid_cost_lower (rc_init 2) n n HD) as HC.
  destruct (rc_recv (rc_init 2) n n) as [[s' fr] res] eqn:E.
  pose proof (proj2 (rc_recv_processed _ _ _ _ _ _ HD E)) as S8.
  pose proof (rc_recv_deque _ _ _ _ _ _ HD E) as (_ & S2 & _).
  pose proof (proj1 (rc_recv_counts _ _ _ _ _ _ HD E)) as S4.
  pose proof (active_le_len s') as HA. rewrite S2, HL in HA.
  split; [split; [|split; [assumption|lia]]|split].
  - rewrite S8. replace (r_limit (rc_init 2)) with 2 by reflexivity.
    destruct (N.ltb_spec 2 (active s')); [lia|reflexivity].
  - unfold rc_new_cells. rewrite HD. lia.
  - lia.
Qed.

Lemma p_c04_new_cid_limit : forall s seq rpt s' fr res,
  rc_discards s seq = false -> rc_recv s seq rpt = (s', fr, res) ->
  (r_limit s < active s' -> res = NErrLimit /\ rc_res_err res = E_CONNECTION_ID_LIMIT) /\
  (active s' <= r_limit s -> res = NAccepted /\ rc_res_err res = E_NONE).
Proof.
  intros s seq rpt s' fr res HD H.
  rewrite (proj2 (rc_recv_processed _ _ _ _ _ _ HD H)).
  destruct (N.ltb_spec (r_limit s) (active s')); split; intros; try lia; split; reflexivity.
Qed.

Lemma p_c04_new_cid_discarded : forall s seq rpt, seq < r_coff s ->
  rc_recv s seq rpt = (s, [], NDiscarded) /\ rc_new_cost s seq rpt = 1 /\ rc_new_drv s seq rpt = 0.
Proof.
  intros s seq rpt H. assert (HD : rc_discards s seq = true) by (apply N.ltb_lt; assumption).
  unfold rc_new_cost, rc_new_drv. rewrite rc_recv_eq, HD. auto.
Qed.

Local Close Scope N_scope.
Local Open Scope Z_scope.

Lemma zlen_nonneg {A} (l : list A) : 0 <= zlen l.
Proof. unfold zlen. lia. Qed.
Lemma zlen_app {A} (a b : list A) : zlen (a ++ b) = zlen a + zlen b.
Proof. unfold zlen. rewrite app_length. lia. Qed.
Lemma zlen_repeat {A} (x : A) n : zlen (repeat x n) = Z.of_nat n.
Proof. unfold zlen. now rewrite repeat_length. Qed.

Definition lc_wf (s : lcst) : Prop := 0 <= lc_off s.

Lemma lead_none_le : forall l, (lead_none l <= length l)%nat.
Proof. induction l as [|[] r IH]; cbn; lia. Qed.
Lemma clear_nth_length : forall n l, length (clear_nth n l) = length l.
Proof. induction n; destruct l; cbn; auto. Qed.

Lemma p_c04_set_limit_small : forall s n, n < 2 ->
  lc_set_err s n = E_TRANSPORT_PARAMETER /\ lc_set_cost s n = 1 /\ lc_set_apply s n = s.
Proof.
  intros s n H. unfold lc_set_err, lc_set_cost, lc_set_frames, lc_set_apply.
  destruct (Z.ltb_spec n 2); [auto|lia].
Qed.

Lemma p_c04_retire_unissued : forall s seq, lc_next s <= seq ->
  lc_retire_err true s seq = E_PROTOCOL_VIOLATION /\ lc_retire_cost s seq = 1 /\ lc_retire_apply s seq = s.
Proof.
  intros s seq H. unfold lc_retire_err, lc_retire_cost, lc_retire_apply, lc_retire_hits.
  destruct (Z.leb_spec (lc_next s) seq); [|lia]. destruct (Z.ltb_spec seq (lc_next s)); [lia|]. cbn. auto.
Qed.
