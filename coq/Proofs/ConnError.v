(* Proofs about Model/ConnError.v: what on_conn_error wakes and what it leaves registered; what any other
   operation may do to the error state of the components ([evolves]); what every operation answers once
   the connection is poisoned. *)
From Coq Require Import List ZArith Bool.
From GQ Require Import Model.ConnError.
Import ListNotations.
Local Open Scope N_scope.

Definition Clean (m : cm) : Prop :=
  c_out_err m = None /\ c_dgin_err m = None /\ c_dgout_err m = None /\ c_perr m = None /\
  Forall (fun ks => sn_err (snd ks) = None) (c_snd m) /\
  Forall (fun kr => rc_err (snd kr) = None) (c_rcv m).

Definition snd_ok (e : err) (s : sender) : Prop :=
  (sn_live s = true -> sn_err s = Some e) /\ (forall e', sn_err s = Some e' -> e' = e).
Definition rcv_ok (e : err) (r : recver) : Prop :=
  (rc_live r = true -> rc_err r = Some e) /\ (forall e', rc_err r = Some e' -> e' = e).

Definition Poisoned (e : err) (m : cm) : Prop :=
  c_out_err m = Some e /\ c_dgin_err m = Some e /\ c_dgout_err m = Some e /\ c_perr m = Some e /\
  Forall (fun ks => snd_ok e (snd ks)) (c_snd m) /\
  Forall (fun kr => rcv_ok e (snd kr)) (c_rcv m).

Lemma Forall_alookup : forall A (P : A -> Prop) (l : list (N * A)) k v,
  Forall (fun kv => P (snd kv)) l -> alookup l k = Some v -> P v.
Proof.
  intros A P l k v H. induction H as [|[k' v'] t Hv _ IH]; cbn; [discriminate|].
  destruct (k' =? k); [intros [= <-]; exact Hv|exact IH].
Qed.

Lemma handed_sender_lookup : forall m sid s, handed_sender m sid = Some s -> alookup (c_snd m) sid = Some s.
Proof.
  intros m sid s H. unfold handed_sender in H. destruct (alookup (c_snd m) sid) as [s0|]; [|discriminate].
  destruct (sn_handed s0); inversion H; reflexivity.
Qed.
Lemma handed_recver_lookup : forall m sid r, handed_recver m sid = Some r -> alookup (c_rcv m) sid = Some r.
Proof.
  intros m sid r H. unfold handed_recver in H. destruct (alookup (c_rcv m) sid) as [r0|]; [|discriminate].
  destruct (rc_handed r0); inversion H; reflexivity.
Qed.
Lemma peer_may_send_lookup : forall m sid r, peer_may_send m sid = Some r -> alookup (c_rcv m) sid = Some r.
Proof.
  intros m sid r H. unfold peer_may_send in H. destruct (_ || _); [|discriminate].
  destruct (alookup (c_rcv m) sid) as [r0|]; [|discriminate]. destruct (_ && _); inversion H; reflexivity.
Qed.

(* Outgoing::on_conn_error / Incoming::on_conn_error act exactly on the halves whose slots count as
   registered, and wake exactly those slots *)
Lemma snd_conn_error_eq : forall e s, snd_conn_error e s =
  if in_set s && sn_live s && match sn_err s with None => true | _ => false end
  then (mksn (sn_st s) (sn_written s) (sn_window s) (sn_sent s) (sn_acked s) None None None
             (sn_handed s) (sn_inset s) (Some e), sn_wakers s)
  else (s, []).
Proof. intros. unfold snd_conn_error. destruct (in_set s), (sn_err s), (sn_live s); reflexivity. Qed.

Lemma rcv_conn_error_eq : forall e r, rcv_conn_error e r =
  if rc_live r && match rc_err r with None => true | _ => false end
  then (mkrc (rc_ph r) (rc_rcvd r) (rc_read r) (rc_final r) None (rc_handed r) (Some e)
             (tk_rcvd r) (tk_fin r) (tk_reset r) (tk_known r), opt_list (rc_wread r))
  else (r, []).
Proof. intros. unfold rcv_conn_error. destruct (rc_err r), (rc_live r); reflexivity. Qed.

Lemma snd_ce_wakes : forall e s, snd (snd_conn_error e s) = snd_registered s.
Proof. intros. rewrite snd_conn_error_eq. unfold snd_registered. destruct (_ && _); reflexivity. Qed.
Lemma rcv_ce_wakes : forall e r, snd (rcv_conn_error e r) = rcv_registered r.
Proof. intros. rewrite rcv_conn_error_eq. unfold rcv_registered. destruct (_ && _); reflexivity. Qed.

Lemma snd_ce_cleared : forall e s, snd_registered (fst (snd_conn_error e s)) = [].
Proof.
  intros. rewrite snd_conn_error_eq. destruct (in_set s && sn_live s && _) eqn:C; unfold snd_registered; cbn [fst].
  - cbn [sn_err]. rewrite andb_false_r. reflexivity.
  - rewrite C. reflexivity.
Qed.
Lemma rcv_ce_cleared : forall e r, rcv_registered (fst (rcv_conn_error e r)) = [].
Proof.
  intros. rewrite rcv_conn_error_eq. destruct (rc_live r && _) eqn:C; unfold rcv_registered; cbn [fst].
  - cbn [rc_err]. rewrite andb_false_r. reflexivity.
  - rewrite C. reflexivity.
Qed.

Lemma sn_live_in_set : forall s, sn_live s = true -> in_set s = true.
Proof. intros s. unfold sn_live, in_set. destruct (sn_st s); congruence. Qed.

Lemma snd_ce_ok : forall e s, sn_err s = None -> snd_ok e (fst (snd_conn_error e s)).
Proof.
  intros e s E. rewrite snd_conn_error_eq, E. unfold snd_ok.
  destruct (sn_live s) eqn:L; rewrite ?andb_false_r, ?andb_true_r.
  - rewrite (sn_live_in_set s L). cbn. split; [reflexivity|congruence].
  - cbn [fst]. rewrite L, E. split; discriminate.
Qed.
Lemma rcv_ce_ok : forall e r, rc_err r = None -> rcv_ok e (fst (rcv_conn_error e r)).
Proof.
  intros e r E. rewrite rcv_conn_error_eq, E. unfold rcv_ok.
  destruct (rc_live r) eqn:L; cbn [andb fst]; [cbn; split; [reflexivity|congruence]|].
  rewrite L, E. split; discriminate.
Qed.

Section MapErr.
  Variable A : Type.
  Variable f : A -> A * list tid.
  Variable reg : A -> list tid.

  Lemma map_err_cons : forall k v t,
    map_err f ((k, v) :: t) = ((k, fst (f v)) :: fst (map_err f t), snd (f v) ++ snd (map_err f t)).
  Proof. intros. cbn [map_err]. destruct (f v). destruct (map_err f t). reflexivity. Qed.

  Lemma map_err_wakes : (forall v, snd (f v) = reg v) ->
    forall l, snd (map_err f l) = flat_map (fun x => reg (snd x)) l.
  Proof.
    intros Hf. induction l as [|[k v] r IH]; [reflexivity|].
    rewrite map_err_cons. cbn [snd flat_map]. rewrite Hf, IH. reflexivity.
  Qed.
  Lemma map_err_cleared : (forall v, reg (fst (f v)) = []) ->
    forall l, flat_map (fun x => reg (snd x)) (fst (map_err f l)) = [].
  Proof.
    intros Hf. induction l as [|[k v] r IH]; [reflexivity|].
    rewrite map_err_cons. cbn [fst snd flat_map]. rewrite Hf, IH. reflexivity.
  Qed.
  Lemma map_err_forall : forall (P Q : A -> Prop), (forall v, P v -> Q (fst (f v))) ->
    forall l, Forall (fun kv => P (snd kv)) l -> Forall (fun kv => Q (snd kv)) (fst (map_err f l)).
  Proof.
    intros P Q Hf l H. induction H as [|[k v] r Hv _ IH]; [constructor|].
    rewrite map_err_cons. constructor; [apply Hf; exact Hv|exact IH].
  Qed.
End MapErr.

Lemma ds_spec : forall e m, c_out_err m = None ->
  let m' := ds_conn_error e m in
  c_snd m' = fst (map_err (snd_conn_error e) (c_snd m)) /\
  c_rcv m' = fst (map_err (rcv_conn_error e) (c_rcv m)) /\
  c_out_err m' = Some e /\ c_wbi m' = None /\ c_wuni m' = None /\
  c_wsid m' = (if c_fix23 m then ([], []) else c_wsid m) /\
  c_woken m' = (c_woken m ++ (snd (map_err (snd_conn_error e) (c_snd m)) ++ snd (map_err (rcv_conn_error e) (c_rcv m)) ++
                              opt_list (c_wbi m) ++ opt_list (c_wuni m))) ++
               (if c_fix23 m then fst (c_wsid m) ++ snd (c_wsid m) else []) /\
  c_wparams m' = c_wparams m /\ c_perr m' = c_perr m /\ c_wdg m' = c_wdg m /\
  c_dgin_err m' = c_dgin_err m /\ c_dgout_err m' = c_dgout_err m.
Proof.
  (* on a record of variables every projection of every setter computes at once *)
  intros e [fx role mem pm psd hs sn rc oe lq wbi wuni mx nx wsid pn pr wp pe dgi wdg die dgo doe fm fs fe tk wk] H.
  cbn in H. subst oe. unfold ds_conn_error. cbn.
  destruct (map_err (snd_conn_error e) sn) as [s' w1].
  destruct (map_err (rcv_conn_error e) rc) as [r' w2].
  destruct fx; cbn; rewrite ?app_nil_r; repeat split; reflexivity.
Qed.

Lemma dg_spec : forall e m, c_dgin_err m = None -> c_dgout_err m = None ->
  let m' := dg_conn_error e m in
  c_snd m' = c_snd m /\ c_rcv m' = c_rcv m /\ c_out_err m' = c_out_err m /\
  c_wbi m' = c_wbi m /\ c_wuni m' = c_wuni m /\ c_wsid m' = c_wsid m /\
  c_woken m' = c_woken m ++ opt_list (c_wdg m) /\
  c_wparams m' = c_wparams m /\ c_perr m' = c_perr m /\ c_wdg m' = None /\
  c_dgin_err m' = Some e /\ c_dgout_err m' = Some e.
Proof.
  intros e [fx role mem pm psd hs sn rc oe lq wbi wuni mx nx wsid pn pr wp pe dgi wdg die dgo doe fm fs fe tk wk] H1 H2.
  cbn in H1, H2. subst die doe. destruct wdg; cbn; rewrite ?app_nil_r; repeat split; reflexivity.
Qed.

Lemma params_spec : forall e m, c_perr m = None ->
  let m' := params_conn_error e m in
  c_snd m' = c_snd m /\ c_rcv m' = c_rcv m /\ c_out_err m' = c_out_err m /\
  c_wbi m' = c_wbi m /\ c_wuni m' = c_wuni m /\ c_wsid m' = c_wsid m /\
  c_woken m' = c_woken m ++ c_wparams m /\
  c_wparams m' = [] /\ c_perr m' = Some e /\ c_wdg m' = c_wdg m /\
  c_dgin_err m' = c_dgin_err m /\ c_dgout_err m' = c_dgout_err m.
Proof.
  intros e m H. unfold params_conn_error. rewrite H. cbn. repeat split; reflexivity.
Qed.

Lemma conn_error_spec : forall e m, Clean m ->
  let m' := conn_error e m in
  c_snd m' = fst (map_err (snd_conn_error e) (c_snd m)) /\
  c_rcv m' = fst (map_err (rcv_conn_error e) (c_rcv m)) /\
  c_out_err m' = Some e /\ c_dgin_err m' = Some e /\ c_dgout_err m' = Some e /\ c_perr m' = Some e /\
  c_wbi m' = None /\ c_wuni m' = None /\ c_wparams m' = [] /\ c_wdg m' = None /\
  c_wsid m' = (if c_fix23 m then ([], []) else c_wsid m) /\
  c_woken m' = c_woken m ++ flat_map (fun x => snd_registered (snd x)) (c_snd m) ++
               flat_map (fun x => rcv_registered (snd x)) (c_rcv m) ++ opt_list (c_wbi m) ++ opt_list (c_wuni m) ++
               (if c_fix23 m then fst (c_wsid m) ++ snd (c_wsid m) else []) ++ opt_list (c_wdg m) ++ c_wparams m.
Proof.
  intros e m (Ho & Hi & Hg & Hp & _). unfold conn_error.
  pose proof (ds_spec e m Ho) as D. cbv zeta in D.
  destruct D as (D1 & D2 & D3 & D4 & D5 & D6 & D7 & D8 & D9 & D10 & D11 & D12).
  pose proof (dg_spec e (ds_conn_error e m) ltac:(congruence) ltac:(congruence)) as G. cbv zeta in G.
  destruct G as (G1 & G2 & G3 & G4 & G5 & G6 & G7 & G8 & G9 & G10 & G11 & G12).
  pose proof (params_spec e (dg_conn_error e (ds_conn_error e m)) ltac:(congruence)) as P. cbv zeta in P.
  destruct P as (P1 & P2 & P3 & P4 & P5 & P6 & P7 & P8 & P9 & P10 & P11 & P12).
  (* every field but the woken list is written by one stage and passed on by the other two *)
  cbv zeta. repeat split; try congruence.
  rewrite P7, G7, G8, D7, D8, D10, <- !app_assoc.
  rewrite (map_err_wakes _ _ _ (snd_ce_wakes e)), (map_err_wakes _ _ _ (rcv_ce_wakes e)). reflexivity.
Qed.

Lemma conn_error_wakes : forall e m t, Clean m ->
  In t (registered_but_sid m) \/ c_fix23 m = true /\ In t (fst (c_wsid m) ++ snd (c_wsid m)) ->
  In t (c_woken (conn_error e m)).
Proof.
  intros e m t C H. destruct (conn_error_spec e m C) as (_ & _ & _ & _ & _ & _ & _ & _ & _ & _ & _ & W).
  rewrite W. destruct H as [H|[F H]].
  - unfold registered_but_sid in H. rewrite !in_app_iff in *. tauto.
  - rewrite F, !in_app_iff in *. tauto.
Qed.

Lemma conn_error_woken : forall e m t, Clean m -> c_fix23 m = true ->
  In t (registered m) -> In t (c_woken (conn_error e m)).
Proof.
  intros e m t C F H. apply conn_error_wakes; [exact C|].
  unfold registered in H. unfold registered_but_sid. rewrite !in_app_iff in *. tauto.
Qed.

Lemma conn_error_cleared : forall e m, Clean m -> c_fix23 m = true -> registered (conn_error e m) = [].
Proof.
  intros e m C F.
  destruct (conn_error_spec e m C) as (S & R & _ & _ & _ & _ & Wb & Wu & Wp & Wd & Ws & _).
  unfold registered. rewrite S, R, Wb, Wu, Wp, Wd, Ws, F.
  rewrite (map_err_cleared _ _ snd_registered (snd_ce_cleared e)).
  rewrite (map_err_cleared _ _ rcv_registered (rcv_ce_cleared e)). reflexivity.
Qed.

Lemma conn_error_poisoned : forall e m, Clean m -> Poisoned e (conn_error e m).
Proof.
  intros e m C. destruct (conn_error_spec e m C) as (S & R & Eo & Ei & Eg & Ep & _).
  destruct C as (_ & _ & _ & _ & Hs & Hr). unfold Poisoned. rewrite S, R. repeat split; try assumption.
  - apply (map_err_forall _ _ (fun s => sn_err s = None) (snd_ok e)); [apply snd_ce_ok|exact Hs].
  - apply (map_err_forall _ _ (fun r => rc_err r = None) (rcv_ok e)); [apply rcv_ce_ok|exact Hr].
Qed.

(* a second close (the other side's, racing) changes nothing *)
Lemma conn_error_again : forall e e2 m, Poisoned e m -> conn_error e2 m = m.
Proof.
  intros e e2 m (Ho & Hi & Hg & Hp & _ & _). unfold conn_error, ds_conn_error. rewrite Ho.
  unfold dg_conn_error. rewrite Hi, Hg. unfold params_conn_error. rewrite Hp. reflexivity.
Qed.

(* STREAM, FIN and RESET_STREAM rewrite the receiving half they are addressed to and keep its error field;
   if that half is no longer live in the input set, only the harness' record of what the peer has sent *)
Inductive arrives (m : cm) (sid : N) : cm -> Prop :=
| arr_none : arrives m sid m
| arr_tk : forall r a b c, peer_may_send m sid = Some r -> live_in_set m r = false ->
    arrives m sid (upd_rcv m sid (with_tk r a b c))
| arr_live : forall r r' l, peer_may_send m sid = Some r -> live_in_set m r = true -> rc_err r' = rc_err r ->
    arrives m sid (wake_list (upd_rcv m sid r') l).

Lemma peer_data_arrives : forall m sid len fin, arrives m sid (fst (peer_data m sid len fin)).
Proof.
  intros. unfold peer_data. destruct (peer_may_send m sid) as [r|] eqn:E; [|constructor].
  destruct (live_in_set m r) eqn:L; cbn [fst]; [apply (arr_live _ _ r); auto|apply arr_tk; assumption].
Qed.
Lemma peer_fingap_arrives : forall m sid g, arrives m sid (fst (peer_fingap m sid g)).
Proof.
  intros. unfold peer_fingap. destruct (peer_may_send m sid) as [r|] eqn:E; [|constructor].
  destruct (tk_fin r); [constructor|].
  destruct (live_in_set m r) eqn:L; cbn [fst]; [apply (arr_live _ _ r); auto|apply arr_tk; assumption].
Qed.
Lemma peer_reset_arrives : forall m sid, arrives m sid (fst (peer_reset m sid)).
Proof.
  intros. unfold peer_reset. destruct (peer_may_send m sid) as [r|] eqn:E; [|constructor].
  destruct (live_in_set m r) eqn:L; cbn [fst]; [apply (arr_live _ _ r); auto|apply arr_tk; assumption].
Qed.

(* the flag that selects the fan-out, the four component errors and the two stream tables: Clean and
   Poisoned look at nothing else, and most operations leave all seven as they are *)
Definition same7 (m m' : cm) : Prop :=
  c_fix23 m' = c_fix23 m /\ c_out_err m' = c_out_err m /\ c_dgin_err m' = c_dgin_err m /\
  c_dgout_err m' = c_dgout_err m /\ c_perr m' = c_perr m /\ c_snd m' = c_snd m /\ c_rcv m' = c_rcv m.

Lemma same7_refl : forall m, same7 m m.
Proof. intros. repeat split. Qed.
Lemma same7_trans : forall a b c, same7 a b -> same7 b c -> same7 a c.
Proof. intros a b c (A0&A1&A2&A3&A4&A5&A6) (B0&B1&B2&B3&B4&B5&B6). repeat split; congruence. Qed.
Lemma same7_set_exec : forall m t w, same7 m (set_exec m t w). Proof. intros. repeat split. Qed.
Lemma same7_set_sid : forall m a b c, same7 m (set_sid m a b c). Proof. intros. repeat split. Qed.
Lemma same7_set_flow : forall m a b c, same7 m (set_flow m a b c). Proof. intros. repeat split. Qed.
Lemma same7_set_listener : forall m a b c, same7 m (set_listener m a b c). Proof. intros. repeat split. Qed.
Lemma same7_wake_list : forall m l, same7 m (wake_list m l). Proof. intros. repeat split. Qed.
Lemma same7_wake_opt : forall m o, same7 m (wake_opt m o). Proof. intros. destruct o; repeat split. Qed.
Lemma same7_set_misc : forall m h pn, same7 m (set_misc m h (c_out_err m) pn). Proof. intros. repeat split. Qed.
Lemma same7_set_params : forall m a b w pe, c_perr m = pe -> same7 m (set_params m a b w pe).
Proof. intros m a b w pe <-. repeat split. Qed.
Lemma same7_set_dgin : forall m q w ie, c_dgin_err m = ie -> same7 m (set_dgin m q w ie).
Proof. intros m q w ie <-. repeat split. Qed.
Lemma same7_set_dgout : forall m q oe, c_dgout_err m = oe -> same7 m (set_dgout m q oe).
Proof. intros m q oe <-. repeat split. Qed.

Lemma same7_sid_increase : forall m d v, same7 m (sid_increase m d v).
Proof.
  intros. unfold sid_increase. destruct (_ <? _); [|apply same7_refl].
  eapply same7_trans; [apply same7_set_sid|apply same7_wake_list].
Qed.
Lemma same7_credit : forall m n, same7 m (fst (credit m n)).
Proof. intros. unfold credit. destruct (c_ferr m); apply same7_refl. Qed.
Lemma same7_flow_err : forall m e, same7 m (flow_conn_error e m).
Proof. intros. unfold flow_conn_error. destruct (c_ferr m); [apply same7_refl|apply same7_set_flow]. Qed.
Lemma same7_dgram_send : forall m len, same7 m (fst (dgram_send m len)).
Proof.
  intros. unfold dgram_send. destruct (c_dgout_err m) eqn:E; [apply same7_refl|].
  destruct (_ <? _); cbn [fst]; [apply same7_refl|apply same7_set_dgout; exact E].
Qed.
Lemma same7_dgram_in : forall m len, same7 m (fst (dgram_in m len)).
Proof.
  intros. unfold dgram_in. destruct (c_dgin_err m) eqn:E; [apply same7_refl|]. cbn [fst].
  eapply same7_trans; [apply same7_set_dgin; exact E|apply same7_wake_opt].
Qed.
(* the handshake writes Ok parameters over Ok parameters, raises stream limits and the flow limit *)
Lemma same7_handshake : forall m, same7 m (fst (handshake m)).
Proof.
  intros. unfold handshake. destruct (c_hs m); [apply same7_refl|].
  set (m0 := set_misc m true (c_out_err m) (c_peer_next m)).
  set (m1 := match c_perr m0 with Some _ => m0 | None => _ end).
  set (m2 := match c_out_err m1 with Some _ => m1 | None => _ end).
  assert (S0 : same7 m m0) by apply same7_set_misc.
  assert (S1 : same7 m0 m1).
  { subst m1. destruct (c_perr m0) eqn:E; [apply same7_refl|].
    eapply same7_trans; [apply same7_set_params; exact E|apply same7_wake_list]. }
  assert (S2 : same7 m1 m2).
  { subst m2. destruct (c_out_err m1); [apply same7_refl|]. eapply same7_trans; apply same7_sid_increase. }
  cbn [fst]. destruct (c_ferr m2); eauto using same7_trans, same7_set_flow.
Qed.

(* one half of a stream, sending or receiving, seen through its error field and whether it is live *)
Section Half.
  Variable A : Type.
  Variable herr : A -> option err.
  Variable hlive : A -> bool.

  (* what [Clean] (o = None) and [Poisoned e] (o = Some e) ask of a half *)
  Definition half_at (o : option err) (a : A) : Prop :=
    match o with
    | None => herr a = None
    | Some e => (hlive a = true -> herr a = Some e) /\ (forall e', herr a = Some e' -> e' = e)
    end.

  Definition half_keeps (a a' : A) : Prop := herr a' = herr a /\ (hlive a' = true -> hlive a = true).

  Lemma half_at_keeps : forall o a a', half_keeps a a' -> half_at o a -> half_at o a'.
  Proof. intros [e|] a a' [E L]; unfold half_at; rewrite E; [intros [H1 H2]; auto|auto]. Qed.

  Lemma half_at_born : forall o a, herr a = o -> half_at o a.
  Proof. intros [e|] a E; unfold half_at; rewrite E; [split; congruence|reflexivity]. Qed.

  (* a half that does not carry the error is dead: the fan-out passed it by *)
  Lemma half_at_some : forall e a, half_at (Some e) a -> herr a = Some e \/ herr a = None /\ hlive a = false.
  Proof.
    intros e a [L Q]. destruct (herr a) as [e'|]; [left; rewrite (Q e' eq_refl); reflexivity|right; split; [reflexivity|]].
    destruct (hlive a); [discriminate (L eq_refl)|reflexivity].
  Qed.

  Definition tbl_keeps (l l' : list (N * A)) : Prop := Forall2 (fun x y => half_keeps (snd x) (snd y)) l l'.

  Lemma half_keeps_refl : forall a, half_keeps a a.
  Proof. intros. split; auto. Qed.

  Lemma tbl_keeps_aupdate : forall l k a a', alookup l k = Some a -> half_keeps a a' -> tbl_keeps l (aupdate l k a').
  Proof.
    induction l as [|[k' v] t IH]; intros k a a' H K; [discriminate|]. cbn in *.
    assert (R : tbl_keeps t t) by (clear; induction t; constructor; [apply half_keeps_refl|assumption]).
    destruct (k' =? k); constructor; [inversion H; subst; exact K|exact R|apply half_keeps_refl|exact (IH _ _ _ H K)].
  Qed.

  Lemma tbl_keeps_at : forall o l l', tbl_keeps l l' ->
    Forall (fun x => half_at o (snd x)) l -> Forall (fun x => half_at o (snd x)) l'.
  Proof.
    intros o l l' K. induction K as [|x y l l' Kx _ IH]; intros H; [constructor|]. inversion H; subst.
    constructor; [exact (half_at_keeps o _ _ Kx H2)|exact (IH H3)].
  Qed.
End Half.

(* [Clean] and [Poisoned e] are one statement about where the fan-out stands: every component error is o, and
   so is every half, as far as [half_at] asks.  [ErrIs None m] is convertible with [Clean m], [ErrIs (Some e) m]
   with [Poisoned e m]: the lemmas about [ErrIs] are applied to either form as they stand. *)
Definition ErrIs (o : option err) (m : cm) : Prop :=
  c_out_err m = o /\ c_dgin_err m = o /\ c_dgout_err m = o /\ c_perr m = o /\
  Forall (fun ks => half_at _ sn_err sn_live o (snd ks)) (c_snd m) /\
  Forall (fun kr => half_at _ rc_err rc_live o (snd kr)) (c_rcv m).

(* everything an operation other than the fan-out does to the seven of [same7] *)
Inductive evolves : cm -> cm -> Prop :=
| ev_frame : forall m m', same7 m m' -> evolves m m'
| ev_snd : forall m l, tbl_keeps _ sn_err sn_live (c_snd m) l -> evolves m (set_snd m l)
| ev_rcv : forall m l, tbl_keeps _ rc_err rc_live (c_rcv m) l -> evolves m (set_rcv m l)
| ev_new_snd : forall m k s, sn_err s = c_out_err m -> evolves m (set_snd m (c_snd m ++ [(k, s)]))
| ev_new_rcv : forall m k r, rc_err r = c_out_err m -> evolves m (set_rcv m (c_rcv m ++ [(k, r)]))
| ev_trans : forall a b c, evolves a b -> evolves b c -> evolves a c.

Lemma ev_refl : forall m, evolves m m.
Proof. intros. apply ev_frame, same7_refl. Qed.

Lemma ev_upd_snd : forall m k s s', alookup (c_snd m) k = Some s -> sn_err s' = sn_err s ->
  (sn_live s' = true -> sn_live s = true) -> evolves m (upd_snd m k s').
Proof. intros m k s s' H E L. apply ev_snd, (tbl_keeps_aupdate _ _ _ _ _ s); [exact H|split; assumption]. Qed.
Lemma ev_upd_rcv : forall m k r r', alookup (c_rcv m) k = Some r -> rc_err r' = rc_err r ->
  (rc_live r' = true -> rc_live r = true) -> evolves m (upd_rcv m k r').
Proof. intros m k r r' H E L. apply ev_rcv, (tbl_keeps_aupdate _ _ _ _ _ r); [exact H|split; assumption]. Qed.

Lemma evolves_fix23 : forall m m', evolves m m' -> c_fix23 m' = c_fix23 m.
Proof. intros m m' H. induction H as [m m' S| | | | |a b c _ IH1 _ IH2]; try reflexivity; [apply S|congruence]. Qed.

Lemma evolves_errs : forall o m m', evolves m m' -> ErrIs o m -> ErrIs o m'.
Proof.
  intros o m m' H.
  induction H as [m m' (_&A1&A2&A3&A4&A5&A6)|m l K|m l K|m k s E|m k r E|a b c _ IH1 _ IH2]; [| | | | |auto];
    intros (P1&P2&P3&P4&P5&P6); unfold ErrIs.
  - rewrite A1, A2, A3, A4, A5, A6. repeat split; assumption.
  - cbn. repeat split; try assumption. exact (tbl_keeps_at _ _ _ o _ _ K P5).
  - cbn. repeat split; try assumption. exact (tbl_keeps_at _ _ _ o _ _ K P6).
  - cbn. repeat split; try assumption. apply Forall_app. split; [exact P5|]. repeat constructor.
    apply half_at_born. cbn. congruence.
  - cbn. repeat split; try assumption. apply Forall_app. split; [exact P6|]. repeat constructor.
    apply half_at_born. cbn. congruence.
Qed.

(* accept hands the two halves of the stream to the application: a flag (and the window) of each changes *)
Lemma hand_sender_evolves : forall m sid w, evolves m (hand_sender m sid w).
Proof.
  intros. unfold hand_sender. destruct (alookup (c_snd m) sid) as [s|] eqn:E; [|apply ev_refl].
  apply (ev_upd_snd _ _ s); [exact E|reflexivity|exact (fun H => H)].
Qed.
Lemma hand_recver_evolves : forall m sid, evolves m (hand_recver m sid).
Proof.
  intros. unfold hand_recver. destruct (alookup (c_rcv m) sid) as [r|] eqn:E; [|apply ev_refl].
  apply (ev_upd_rcv _ _ r); [exact E|reflexivity|exact (fun H => H)].
Qed.

Lemma poll_evolves : forall m t k, evolves m (fst (poll m t k)).
Proof.
  intros m t k. destruct k as [d | d | sid len | sid | sid | sid n | | ]; cbn [poll].
  - unfold poll_open. destruct (c_out_err m) eqn:Ho; [apply ev_refl|]. destruct (c_perr m) eqn:Hp; [apply ev_refl|].
    destruct (open_window m) as [w|]; cbn [fst]; [|apply ev_frame, same7_set_params; exact Hp].
    destruct (_ <? _); cbn [fst]; [|apply ev_frame, same7_set_sid].
    (* a stream is opened: its halves join healthy tables *)
    set (m1 := set_sid m (c_max m) (pset (c_next m) d (pget (c_next m) d + 1)) (c_wsid m)).
    set (m2 := set_snd m1 (c_snd m1 ++ [(local_sid m d (pget (c_next m) d), new_sender w true)])).
    assert (E2 : evolves m m2).
    { apply (ev_trans _ m1); [apply ev_frame, same7_set_sid|apply ev_new_snd; symmetry; exact Ho]. }
    destruct (d =? 0); [|exact E2]. apply (ev_trans _ _ _ E2), ev_new_rcv. symmetry; exact Ho.
  - unfold poll_accept. destruct (c_out_err m); [apply ev_refl|]. destruct (d =? 0).
    + destruct (c_perr m) eqn:Hp; [apply ev_refl|]. destruct (c_pready m).
      * destruct (fst (c_lq m)) as [|sid q]; cbn [fst]; [apply ev_frame, same7_set_listener|].
        eapply ev_trans; [|apply hand_recver_evolves]. eapply ev_trans; [|apply hand_sender_evolves].
        apply ev_frame, same7_set_listener.
      * cbn [fst]. apply ev_frame, same7_set_params; exact Hp.
    + destruct (snd (c_lq m)) as [|sid q]; cbn [fst]; [apply ev_frame, same7_set_listener|].
      eapply ev_trans; [|apply hand_recver_evolves]. apply ev_frame, same7_set_listener.
  - (* write, flush, shutdown: the sender is replaced by a copy with other counters or slots, in the same state *)
    unfold poll_write. destruct (handed_sender m sid) as [s|] eqn:E; [|apply ev_refl].
    apply handed_sender_lookup in E. destruct (sn_err s); [apply ev_refl|].
    destruct (sn_st s) eqn:St; cbn [fst]; try apply ev_refl. destruct (sn_wshut s); [apply ev_refl|].
    destruct (_ <=? _); cbn [fst]; (apply (ev_upd_snd _ _ s); [exact E|reflexivity|]); [exact (fun H => H)|].
    intros _. unfold sn_live. rewrite St. reflexivity.
  - unfold poll_flush. destruct (handed_sender m sid) as [s|] eqn:E; [|apply ev_refl].
    apply handed_sender_lookup in E. destruct (sn_err s); [apply ev_refl|].
    destruct (sn_st s); cbn [fst]; try apply ev_refl; try (destruct (_ =? _); cbn [fst]; [apply ev_refl|]);
      (apply (ev_upd_snd _ _ s); [exact E|reflexivity|exact (fun H => H)]).
  - unfold poll_shutdown. destruct (handed_sender m sid) as [s|] eqn:E; [|apply ev_refl].
    apply handed_sender_lookup in E. destruct (sn_err s); [apply ev_refl|].
    destruct (sn_st s); cbn [fst]; try apply ev_refl; (apply (ev_upd_snd _ _ s); [exact E|reflexivity|exact (fun H => H)]).
  - (* read: within the live phases, or onwards within the dead ones *)
    unfold poll_read. destruct (handed_recver m sid) as [r|] eqn:E; [|apply ev_refl].
    apply handed_recver_lookup in E. destruct (rc_err r); [apply ev_refl|].
    destruct (rc_ph r) eqn:Ph; cbn [fst]; try apply ev_refl; try (destruct (_ <? _); cbn [fst]);
      (apply (ev_upd_rcv _ _ r); [exact E|reflexivity|]); unfold rc_live; cbn; rewrite Ph; try destruct (_ =? _); auto.
  - unfold poll_dgrecv. destruct (c_dgin_err m) eqn:Hi; [apply ev_refl|].
    destruct (c_dgin m); cbn [fst]; apply ev_frame, same7_set_dgin; exact Hi.
  - unfold poll_pready. destruct (c_perr m) eqn:Hp; [apply ev_refl|]. destruct (c_pready m); cbn [fst]; [apply ev_refl|].
    apply ev_frame, same7_set_params; exact Hp.
Qed.

Lemma peer_open_evolves : forall m d, evolves m (fst (peer_open m d)).
Proof.
  intros m d. unfold peer_open.
  set (m0 := set_misc m (c_hs m) (c_out_err m) (pset (c_peer_next m) d (pget (c_peer_next m) d + 1))).
  assert (E0 : evolves m m0) by apply ev_frame, same7_set_misc.
  set (sid := peer_sid m d (pget (c_peer_next m) d)).
  (* the harness goes on tracking the peer's streams: in either case the new half is born with the error of the table *)
  destruct (c_out_err m0) eqn:E; cbn [fst]; [apply (ev_trans _ _ _ E0), ev_new_rcv; exact (eq_sym E)|].
  set (m1 := set_rcv m0 (c_rcv m0 ++ [(sid, new_recver false)])).
  assert (E1 : evolves m m1) by (apply (ev_trans _ _ _ E0), ev_new_rcv; exact (eq_sym E)).
  set (m2 := if d =? 0 then set_snd m1 (c_snd m1 ++ [(sid, new_sender 0 false)]) else m1).
  assert (E2 : evolves m m2).
  { subst m2. destruct (d =? 0); [|exact E1]. apply (ev_trans _ _ _ E1), ev_new_snd. exact (eq_sym E). }
  apply (ev_trans _ _ _ E2).
  destruct (d =? 0); apply ev_frame; (eapply same7_trans; [apply same7_set_listener|apply same7_wake_opt]).
Qed.

Lemma arrives_evolves : forall m sid m', arrives m sid m' -> evolves m m'.
Proof.
  intros m sid m' [|r a b c E L|r r' l E L Er]; [apply ev_refl| |]; apply peer_may_send_lookup in E.
  - apply (ev_upd_rcv _ _ r); [exact E|reflexivity|exact (fun H => H)].
  - eapply ev_trans; [|apply ev_frame, same7_wake_list]. apply (ev_upd_rcv _ _ r); [exact E|exact Er|].
    unfold live_in_set in L. destruct (c_out_err m); [discriminate L|]. destruct (rc_err r); [discriminate L|auto].
Qed.

(* STOP_SENDING, MAX_STREAM_DATA and acknowledgements rewrite a sender of the output set that carries no error, in a
   live state, and leave it without one *)
Lemma ev_ctl : forall m sid s s' l, sender_in_set m sid = Some s -> sn_live s = true -> sn_err s' = None ->
  evolves m (wake_list (upd_snd m sid s') l).
Proof.
  intros m sid s s' l E L Es. eapply ev_trans; [|apply ev_frame, same7_wake_list].
  unfold sender_in_set in E. destruct (c_out_err m); [discriminate E|].
  destruct (alookup (c_snd m) sid) as [s0|] eqn:LK; [|discriminate E]. destruct (in_set s0); [|discriminate E].
  destruct (sn_err s0) eqn:E0; inversion E; subst s0. apply (ev_upd_snd _ _ s); [exact LK|congruence|auto].
Qed.

Lemma peer_stop_evolves : forall m sid, evolves m (fst (peer_stop m sid)).
Proof.
  intros. unfold peer_stop. destruct (peer_may_ctl m sid); [|apply ev_refl].
  destruct (sender_in_set m sid) as [s|] eqn:E; [|apply ev_refl].
  destruct (sn_live s) eqn:L; cbn [fst]; [apply (ev_ctl _ _ s); auto|apply ev_refl].
Qed.
Lemma peer_maxsd_evolves : forall m sid v, evolves m (fst (peer_maxsd m sid v)).
Proof.
  intros. unfold peer_maxsd. destruct (peer_may_ctl m sid); [|apply ev_refl].
  destruct (sender_in_set m sid) as [s|] eqn:E; [|apply ev_refl]. destruct (sn_st s) eqn:St; try apply ev_refl.
  destruct (_ <? _); cbn [fst]; [apply (ev_ctl _ _ s); auto; unfold sn_live; rewrite St; reflexivity|apply ev_refl].
Qed.
Lemma ack_evolves : forall m sid, evolves m (fst (ack m sid)).
Proof.
  intros. unfold ack. destruct (sender_in_set m sid) as [s|] eqn:E; [|apply ev_refl].
  destruct (_ || _); [|apply ev_refl].
  destruct (sn_st s) eqn:St; cbn [fst]; try apply ev_refl; apply (ev_ctl _ _ s); auto; unfold sn_live; rewrite St; reflexivity.
Qed.

Lemma load_senders_keeps : forall l, tbl_keeps _ sn_err sn_live l (fst (fst (load_senders l))).
Proof.
  induction l as [|[k s] t IH]; [constructor|].
  cbn [load_senders]. destruct (load_senders t) as [[t' b] f]. cbn [fst] in *.
  destruct (_ && _); [|constructor; [apply half_keeps_refl|exact IH]].
  destruct (sn_st s) eqn:St; constructor; try exact IH; try apply half_keeps_refl.
  (* a sender that emits stays in a live state *)
  split; [reflexivity|]. intros _. cbn [snd]. unfold sn_live. rewrite St. reflexivity.
Qed.

Lemma load_evolves : forall m, evolves m (fst (load m)).
Proof.
  intros m. unfold load.
  (* first the senders emit (if the output and the flow controller are healthy), then the datagram queue is drained *)
  set (x := match c_out_err m, c_ferr m with None, None => _ | _, _ => (m, 0, 0) end).
  assert (E1 : evolves m (fst (fst x))).
  { subst x. destruct (c_out_err m); [apply ev_refl|]. destruct (c_ferr m); [apply ev_refl|].
    pose proof (load_senders_keeps (c_snd m)) as L. destruct (load_senders (c_snd m)) as [[s' b] f]. cbn [fst] in *.
    exact (ev_trans _ _ _ (ev_snd _ _ L) (ev_frame _ _ (same7_set_flow _ _ _ _))). }
  destruct x as [[m1 b] f]. cbn [fst] in E1. destruct (c_dgout_err m1) eqn:G; cbn [fst]; [exact E1|].
  exact (ev_trans _ _ _ E1 (ev_frame _ _ (same7_set_dgout _ _ _ G))).
Qed.

(* to state that no receive buffer grows *)
Definition total_rcvd (m : cm) : list (N * N) := map (fun kr => (fst kr, rc_rcvd (snd kr))) (c_rcv m).

Lemma upd_rcv_total : forall m sid r r', alookup (c_rcv m) sid = Some r -> rc_rcvd r' = rc_rcvd r ->
  total_rcvd (upd_rcv m sid r') = total_rcvd m.
Proof.
  intros m sid r r' H E. unfold total_rcvd, upd_rcv. cbn [c_rcv set_rcv]. revert H.
  induction (c_rcv m) as [|[k' v'] t IH]; [reflexivity|]. cbn. destruct (N.eqb_spec k' sid); intros H.
  - inversion H; subst. cbn. rewrite E. reflexivity.
  - cbn. rewrite (IH H). reflexivity.
Qed.

(* the poll has been reduced to a triple: read the answer off and check each clause on it *)
Local Ltac answer PW := injection PW as <- <- <-; repeat split; auto; discriminate.

Lemma poisoned_poll : forall e m t k, Poisoned e m ->
  let m' := fst (poll m t k) in let code := fst (snd (poll m t k)) in let val := snd (snd (poll m t k)) in
  code <> 0%Z /\ (code = 2%Z -> val = Z.of_N e) /\
  (match k with
   | KOpen _ | KAccept _ | KDgRecv | KPReady => code = 2%Z
   | KWrite _ _ => code <> 1%Z
   | _ => True
   end) /\
  Poisoned e m' /\ c_snd m' = c_snd m /\ total_rcvd m' = total_rcvd m /\
  c_dgout m' = c_dgout m /\ c_tasks m' = c_tasks m.
Proof.
  intros e m t k HP. pose proof HP as (Ho & Hi & Hg & Hp & Hs & Hr).
  pose proof (evolves_errs (Some e) _ _ (poll_evolves m t k) HP) as HP'.
  assert (SC : forall sid s, handed_sender m sid = Some s -> sn_err s = Some e \/ sn_err s = None /\ sn_live s = false).
  { intros sid s E. exact (half_at_some _ _ _ e s (Forall_alookup _ _ _ _ _ Hs (handed_sender_lookup _ _ _ E))). }
  destruct (poll m t k) as [m' [code val]] eqn:PW. cbn [fst snd] in *.
  destruct k as [d | d | sid len | sid | sid | sid n | | ]; cbn [poll] in PW.
  - unfold poll_open in PW. rewrite Ho in PW. answer PW.
  - unfold poll_accept in PW. rewrite Ho in PW. answer PW.
  - unfold poll_write in PW. destruct (handed_sender m sid) as [s|] eqn:E; [|answer PW].
    destruct (SC _ _ E) as [Es|[Es L]]; rewrite Es in PW; [answer PW|].
    unfold sn_live in L. destruct (sn_st s); try discriminate L; answer PW.
  - unfold poll_flush in PW. destruct (handed_sender m sid) as [s|] eqn:E; [|answer PW].
    destruct (SC _ _ E) as [Es|[Es L]]; rewrite Es in PW; [answer PW|].
    unfold sn_live in L. destruct (sn_st s); try discriminate L; answer PW.
  - unfold poll_shutdown in PW. destruct (handed_sender m sid) as [s|] eqn:E; [|answer PW].
    destruct (SC _ _ E) as [Es|[Es L]]; rewrite Es in PW; [answer PW|].
    unfold sn_live in L. destruct (sn_st s); try discriminate L; answer PW.
  - unfold poll_read in PW. destruct (handed_recver m sid) as [r|] eqn:E; [|answer PW].
    destruct (half_at_some _ _ _ e r (Forall_alookup _ _ _ _ _ Hr (handed_recver_lookup _ _ _ E))) as [Er|[Er L]];
      rewrite Er in PW; [answer PW|].
    (* the bytes that arrived before the error may still be read: the half moves on within its dead phases,
       holding as many bytes *)
    unfold rc_live in L. destruct (rc_ph r); try discriminate L; try answer PW;
      injection PW as <- <- <-; (split; [discriminate|split; [discriminate|split; [exact I|split; [exact HP'|]]]]);
      repeat split; (apply (upd_rcv_total _ _ r); [exact (handed_recver_lookup _ _ _ E)|reflexivity]).
  - unfold poll_dgrecv in PW. rewrite Hi in PW. answer PW.
  - unfold poll_pready in PW. rewrite Hp in PW. answer PW.
Qed.

Lemma poisoned_load : forall e m, Poisoned e m -> load m = (m, [0; 0; 0]%Z).
Proof.
  intros e m (Ho & Hi & Hg & Hp & _ & _). unfold load. rewrite Ho, Hg. reflexivity.
Qed.
Lemma poisoned_dgram_send : forall e m len, Poisoned e m -> dgram_send m len = (m, [2%Z; Z.of_N e]).
Proof. intros e m len (Ho & Hi & Hg & Hp & _ & _). unfold dgram_send. rewrite Hg. reflexivity. Qed.
Lemma poisoned_dgram_in : forall e m len, Poisoned e m -> dgram_in m len = (m, [2%Z; Z.of_N e]).
Proof. intros e m len (Ho & Hi & Hg & Hp & _ & _). unfold dgram_in. rewrite Hi. reflexivity. Qed.

(* in a poisoned connection no receiving half is live in the input set: the harness' record of what the peer has
   sent is all an arriving frame still changes *)
Lemma poisoned_arrives : forall e m sid m', Poisoned e m -> arrives m sid m' ->
  Poisoned e m' /\ total_rcvd m' = total_rcvd m /\ c_snd m' = c_snd m /\ c_woken m' = c_woken m.
Proof.
  intros e m sid m' HP A. split; [exact (evolves_errs _ _ _ (arrives_evolves _ _ _ A) HP)|].
  destruct A as [|r a b c E L|r r' l E L _]; [auto| |].
  - repeat split. apply (upd_rcv_total _ _ r); [exact (peer_may_send_lookup _ _ _ E)|reflexivity].
  - unfold live_in_set in L. destruct HP as (Ho & _). rewrite Ho in L. discriminate L.
Qed.

(* the history of F23: handshake done, the peer allows one bidirectional stream: the first open gets
   it, the second (task 2) parks in the stream-id allocator *)
Definition f23_ops : list (N * list Z) := [(0, []); (1, [0%Z]); (1, [0%Z])].
Definition f23_cfg : list Z := [0; 0; 1; 1; 10]%Z.
Definition dummy_cm : cm :=
  mkcm true 0 false (0, 0) 0 false [] [] None ([], []) None None (0, 0) (0, 0) ([], []) (0, 0)
       false [] None [] None None [] None 0 0 None [] [].
Definition f23_state (fix23 : bool) : cm :=
  match cm_init fix23 f23_cfg with Some m => cm_exec m 0 f23_ops | None => dummy_cm end.
