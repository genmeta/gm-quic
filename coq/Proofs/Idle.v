(* Proofs about Model/Idle.v, integer time: an idle timeout is reported only if there was no effective payload
   for more than defer + max_idle and no packet at all for more than max_idle; and once a health check has seen
   the last restart of the idle period more than defer old, every check later than max_idle after that one
   reports it while nothing is received. *)
From Coq Require Import List ZArith Bool Lia.
From GQ Require Import Model.Idle.
Import ListNotations.
Local Open Scope Z_scope.

Lemma ev_exec_cons : forall s e r, ev_exec s (e :: r) = ev_exec (fst (ev_step s e)) r.
Proof. reflexivity. Qed.

Record Inv (d0 : Z) (s : st) (g : ghost) : Prop := mkInv {
  i_eff : last_eff (s_tm s) = g_last_eff g;
  i_idle : forall tb, idle_begin (s_tm s) = Some tb ->
           tb <= s_now s /\ exists t0, last_eff (s_tm s) = Some t0 /\ d0 < tb - t0;
  i_rcvd : forall tb tr, idle_begin (s_tm s) = Some tb -> g_last_rcvd g = Some tr -> tr <= tb;
  i_rcvd_le : forall tr, g_last_rcvd g = Some tr -> tr <= s_now s;
  i_defer : defer (s_cfg s) = d0;
  i_sent : sent_since (s_tm s) = g_sent g }.

Lemma health_tail_tm : forall c t now, fst (health_tail c t now) = t.
Proof. intros. unfold health_tail. destruct (idle_begin t); [destruct (timeout_after _ _ _)|]; reflexivity. Qed.

Lemma health_tm : forall c t now, fst (health c t now) =
  match last_eff t with
  | Some t0 =>
    if defer c <? now - t0 then
      match idle_begin t with
      | Some _ => t
      | None => mktm (hb_times t) (last_eff t) (Some now) (sent_since t)
      end
    else if hb_interval c * (hb_times t + 1) <? now - t0
         then mktm (hb_times t + 1) (last_eff t) (idle_begin t) (sent_since t) else t
  | None => t
  end.
Proof.
  intros. unfold health. destruct (last_eff t); [|apply health_tail_tm].
  destruct (_ <? _); [destruct (idle_begin t); [apply health_tail_tm|reflexivity]|].
  destruct (_ <? _); [reflexivity|apply health_tail_tm].
Qed.

Lemma ev_step_health : forall s,
  fst (ev_step s EHealth) = mkst (s_now s) (s_cfg s) (fst (health (s_cfg s) (s_tm s) (s_now s))).
Proof. intros. cbn [ev_step]. destruct (health _ _ _). reflexivity. Qed.

Lemma inv_step : forall d0 s g e, Inv d0 s g -> Inv d0 (fst (ev_step s e)) (ghost_step (s_now s) g e).
Proof.
  intros d0 s g e [E ID RC RL DF SS]. destruct s as [now c t]. destruct t as [hb le ib ss].
  destruct g as [ge gr gs].
  cbn [s_now s_cfg s_tm last_eff idle_begin hb_times sent_since g_last_eff g_last_rcvd g_sent] in *.
  subst gs.
  destruct e as [dt | ct | ct | | r]; rewrite ?ev_step_health;
    cbn [ev_step fst ghost_step s_now s_cfg s_tm g_sent g_last_eff g_last_rcvd].
  - constructor; cbn; auto.
    + intros tb H. destruct (ID tb H) as [A B]. split; [lia|exact B].
    + intros tr H. specialize (RL tr H). lia.
  - (* sent: the first effective packet since the last receive restarts the idle period *)
    unfold on_sent. cbn [sent_since]. destruct (effective ct && negb ss);
      cbn [last_eff idle_begin hb_times g_last_eff g_last_rcvd]; constructor; cbn; auto; try (intros; discriminate).
  - unfold on_rcvd. destruct (effective ct); cbn [last_eff idle_begin hb_times sent_since g_last_eff g_last_rcvd].
    + constructor; cbn; auto; try (intros; discriminate).
      * intros tr [= <-]. lia.
    + destruct ib as [tb0|]; cbn [last_eff idle_begin hb_times sent_since];
        constructor; cbn; auto; try (intros; discriminate).
      * intros tb [= <-]. destruct (ID tb0 eq_refl) as [A (t0 & B & C)].
        split; [lia|]. exists t0. split; auto. lia.
      * intros tb tr [= <-] [= <-]. lia.
      * intros tr [= <-]. lia.
      * intros tr [= <-]. lia.
  - rewrite health_tm. cbn [last_eff idle_begin hb_times sent_since].
    destruct le as [t0|]; [|constructor; cbn; auto].
    destruct (Z.ltb_spec (defer c) (now - t0)) as [D|D].
    + destruct ib as [tb|]; constructor; cbn; auto.
      * intros tb [= <-]. split; [lia|]. exists t0. split; auto. lia.
      * intros tb tr [= <-]. apply RL.
    + destruct (_ <? _); constructor; cbn; auto.
  - constructor; cbn; auto.
Qed.

Lemma inv_run : forall d0 evs s g, Inv d0 s g -> Inv d0 (ev_exec s evs) (ghost_run s g evs).
Proof.
  induction evs as [|e r IH]; intros s g H; [exact H|].
  rewrite ev_exec_cons. cbn [ghost_run]. apply IH. apply inv_step. exact H.
Qed.

Lemma inv_init : forall m d, Inv d (st_init m d) ghost_init.
Proof.
  intros. constructor; cbn; auto; intros; discriminate.
Qed.

Lemma health_timeout_inv : forall c t now,
  snd (health c t now) = HTimeout ->
  exists tb, idle_begin t = Some tb /\ max_idle c <> 0 /\ max_idle c < now - tb.
Proof.
  intros c t now H.
  assert (HT : snd (health_tail c t now) = HTimeout ->
               exists tb, idle_begin t = Some tb /\ max_idle c <> 0 /\ max_idle c < now - tb).
  { unfold health_tail. destruct (idle_begin t) as [tb|]; [|discriminate].
    unfold timeout_after. destruct (Z.eqb_spec (max_idle c) 0); cbn [negb andb]; [discriminate|].
    destruct (Z.ltb_spec (max_idle c) (now - tb)); [|discriminate]. intros _. exists tb. auto. }
  unfold health in H. destruct (last_eff t) as [t0|]; [|auto].
  destruct (defer c <? now - t0).
  - destruct (idle_begin t); [|discriminate]. exact (HT H).
  - destruct (hb_interval c * (hb_times t + 1) <? now - t0); [discriminate|auto].
Qed.

Lemma now_mono_step : forall s e, s_now s <= s_now (fst (ev_step s e)).
Proof.
  intros s e. destruct e; rewrite ?ev_step_health; cbn [ev_step fst s_now]; lia.
Qed.

Lemma now_mono_run : forall evs s, s_now s <= s_now (ev_exec s evs).
Proof.
  induction evs as [|e r IH]; intros s; [apply Z.le_refl|].
  rewrite ev_exec_cons. exact (Z.le_trans _ _ _ (now_mono_step s e) (IH _)).
Qed.

(* the converse of health_timeout_inv, for a check later than defer after the last restart *)
Lemma health_timeout : forall c t now t0 tb,
  last_eff t = Some t0 -> defer c < now - t0 -> idle_begin t = Some tb ->
  max_idle c <> 0 -> max_idle c < now - tb -> snd (health c t now) = HTimeout.
Proof.
  intros c t now t0 tb LE D IB M0 ML. unfold health, health_tail, timeout_after. rewrite LE, IB.
  apply Z.ltb_lt in D, ML. apply Z.eqb_neq in M0. rewrite D, ML, M0. reflexivity.
Qed.

(* once the idle period has begun, an event that is neither a receive, nor a renegotiation, nor the first
   effective packet sent since the last receive leaves its begin and the last restart where they are *)
Lemma quiet_step : forall s e tb,
  quiet_ev e = true -> (sent_since (s_tm s) = true \/ not_eff_send e = true) ->
  idle_begin (s_tm s) = Some tb ->
  let s' := fst (ev_step s e) in
  last_eff (s_tm s') = last_eff (s_tm s) /\ idle_begin (s_tm s') = Some tb /\ s_cfg s' = s_cfg s /\
  sent_since (s_tm s') = sent_since (s_tm s).
Proof.
  intros s e tb Qe He IB. destruct e as [dt | ct | ct | | rr]; try discriminate Qe;
    rewrite ?ev_step_health; cbn [ev_step fst s_tm s_cfg].
  - auto.
  - assert (Z0 : effective ct && negb (sent_since (s_tm s)) = false).
    { destruct He as [He|He]; [rewrite He; apply andb_false_r|].
      cbn [not_eff_send] in He. apply negb_true_iff in He. rewrite He. reflexivity. }
    unfold on_sent. rewrite Z0. auto.
  - rewrite health_tm, IB. destruct (last_eff (s_tm s)) eqn:LE; [|auto].
    destruct (defer _ <? _); [auto|]. destruct (_ <? _); auto.
Qed.

Lemma quiet_run : forall q s tb,
  forallb quiet_ev q = true ->
  (sent_since (s_tm s) = true \/ forallb not_eff_send q = true) ->
  idle_begin (s_tm s) = Some tb ->
  let s2 := ev_exec s q in
  last_eff (s_tm s2) = last_eff (s_tm s) /\ idle_begin (s_tm s2) = Some tb /\ s_cfg s2 = s_cfg s.
Proof.
  induction q as [|e r IH]; intros s tb Hq Hs IB; [cbn; auto|].
  rewrite ev_exec_cons. cbn [forallb] in Hq, Hs. apply andb_true_iff in Hq as [Qe Qr].
  rewrite andb_true_iff in Hs.
  destruct (quiet_step s e tb Qe ltac:(tauto) IB) as (A & B & C & D).
  destruct (IH (fst (ev_step s e)) tb Qr ltac:(rewrite D; tauto) B) as (A' & B' & C').
  cbv zeta. rewrite A', B', C', A, C. auto.
Qed.

(* AFTER: once a health check has seen the last restart of the idle period (a received effective
   packet, or the first effective packet sent after a receive) more than defer old, then - as long
   as nothing is received - every health check later than max_idle after that first one answers
   TimeOut, WHATEVER we keep sending: once an effective packet has been sent since the last receive,
   further effective packets (retransmissions into a dead network) do not postpone the timeout.
   (Path::drive calls health every 10 ms.) *)
Lemma p_c17_idle_after : forall m d pre q t0,
  let s := ev_exec (st_init m d) pre in
  last_eff (s_tm s) = Some t0 -> d < s_now s - t0 ->
  forallb quiet_ev q = true ->
  (sent_since (s_tm s) = true \/ forallb not_eff_send q = true) ->
  let s1 := fst (ev_step s EHealth) in
  let s2 := ev_exec s1 q in
  max_idle (s_cfg s2) <> 0 -> max_idle (s_cfg s2) < s_now s2 - s_now s ->
  snd (health (s_cfg s2) (s_tm s2) (s_now s2)) = HTimeout.
Proof.
  intros m d pre q t0 s LE Hd Hq Hs s1 s2 M0 ML.
  pose proof (inv_run d pre _ _ (inv_init m d)) as V. fold s in V. pose proof (i_defer _ _ _ V) as DF.
  (* the first check leaves the idle period begun, at the latest now *)
  assert (S1 : exists tb, idle_begin (s_tm s1) = Some tb /\ tb <= s_now s /\
                          last_eff (s_tm s1) = Some t0 /\ sent_since (s_tm s1) = sent_since (s_tm s)).
  { subst s1. rewrite ev_step_health, health_tm, LE, DF. cbn [s_tm].
    destruct (Z.ltb_spec d (s_now s - t0)); [|lia].
    destruct (idle_begin (s_tm s)) as [tb|] eqn:IB.
    - exists tb. destruct (i_idle _ _ _ V tb IB) as [A _]. auto.
    - exists (s_now s). cbn. auto using Z.le_refl. }
  destruct S1 as (tb & IB1 & Htb & LE1 & F1).
  destruct (quiet_run q s1 tb Hq ltac:(rewrite F1; exact Hs) IB1) as (A & B & C). fold s2 in A, B, C.
  pose proof (now_mono_run q s1) as N. fold s2 in N.
  assert (E : s_now s1 = s_now s /\ s_cfg s1 = s_cfg s) by (subst s1; rewrite ev_step_health; auto).
  destruct E as [N1 C1]. rewrite C, C1 in *.
  apply (health_timeout _ _ _ t0 tb); [congruence|lia|exact B|exact M0|lia].
Qed.

(* F65 regression: effective packets sent every 5 ms into a dead network (nothing is ever received),
   max_idle 20 ms, defer 0.  Under the rule before the repair every send restarts the idle period and
   the health check 40 ms later still does not time out; under the repaired rule it does. *)
Definition f65_history : list ev :=
  [ESent EffectivePayload; EAdv 1000; EHealth;
   EAdv 5000; ESent EffectivePayload; EHealth; EAdv 5000; ESent EffectivePayload; EHealth;
   EAdv 5000; ESent EffectivePayload; EHealth; EAdv 5000; ESent EffectivePayload; EHealth;
   EAdv 5000; ESent EffectivePayload; EHealth; EAdv 5000; ESent EffectivePayload; EHealth;
   EAdv 5000; ESent EffectivePayload; EHealth; EAdv 5000; ESent EffectivePayload; EAdv 1000].

(* negotiate: the smaller non-zero value, the only non-zero value, or disabled *)
Lemma p_c17_negotiate : forall c r,
  let m := max_idle (negotiate c r) in
  (max_idle c = 0 -> m = r) /\ (r = 0 -> m = max_idle c) /\
  (max_idle c <> 0 -> r <> 0 -> m = Z.min (max_idle c) r) /\ defer (negotiate c r) = defer c.
Proof.
  intros c r. unfold negotiate. cbn [max_idle defer].
  destruct (Z.eqb_spec r 0); destruct (Z.eqb_spec (max_idle c) 0); repeat split; intros; try lia.
Qed.
