(* Lifting the component results to the composed model (Model/StreamCtl.v, ds_step):
   1. the round-robin over the senders and one packet-loading step, which charges exactly the fresh
      bytes (load_once_charge), then the loading loop (load_loop_inv);
   2. what all operations but HANDSHAKE and LOAD have in common (ds_step_tracks): the Sid / listener
      components follow, the charge of the controller and the senders' invariant are left alone;
   3. what every operation does, seen from the components (ds_step_spec), and every run (ds_exec_sim);
      C11.v and C12.v read the sender / controller invariant, the bounds and the simulations along
      every whole-DataStreams op list off these. *)
From Coq Require Import List ZArith Bool Lia.
From GQ Require Import Model.StreamCtl Proofs.Sid Proofs.Flow Proofs.StreamCtl.
Import ListNotations.
Local Open Scope N_scope.

Definition wmap (outs : list (N * sender)) (k : N) : option N := option_map sn_window (alookup outs k).

Definition AllW (outs : list (N * sender)) : Prop := forall k sn, alookup outs k = Some sn -> Winv sn.

Lemma AllW_aupdate outs k v : AllW outs -> Winv v -> AllW (aupdate outs k v).
Proof.
  intros H Hv k' sn. rewrite alookup_aupdate. destruct (k =? k').
  - destruct (alookup outs k); [|discriminate]. intro E; injection E as <-; exact Hv.
  - apply H.
Qed.

Lemma AllW_ainsert outs k v : AllW outs -> Winv v -> AllW (ainsert outs k v).
Proof.
  intros H Hv k' sn. rewrite alookup_ainsert. destruct (k =? k').
  - intro E; injection E as <-; exact Hv.
  - apply H.
Qed.

Lemma wmap_aupdate outs k v s0 k' :
  alookup outs k = Some s0 -> sn_window v = sn_window s0 -> wmap (aupdate outs k v) k' = wmap outs k'.
Proof.
  intros L W. unfold wmap. rewrite alookup_aupdate. destruct (N.eqb_spec k k') as [<-|]; [|reflexivity].
  rewrite L. cbn. congruence.
Qed.

Lemma try_streams_spec order cap fl outs outs' r :
  AllW outs -> try_streams outs order cap fl = (outs', r) ->
  AllW outs' /\ (forall k, wmap outs' k = wmap outs k)
  /\ match r with
     | Some (sid, tok, (st, e, fresh, eos)) =>
       (exists w, wmap outs sid = Some w /\ st <= e <= w) /\ (fresh = true -> e - st <= fl)
     | None => True
     end.
Proof.
  revert outs. induction order as [|[k t] rest IH]; intros outs HW H; cbn [try_streams] in H.
  - injection H as <- <-. auto.
  - destruct (alookup outs k) as [sn|] eqn:L; [|eapply IH; eauto].
    destruct (snd_try_load sn fl _) as [sn' [[[[st0 e0] fr0] eos0]|]] eqn:T;
      destruct (try_load_spec _ _ _ _ _ (HW _ _ L) T) as (Iv & Wn & B).
    + injection H as <- <-. split; [apply AllW_aupdate; assumption|].
      split; [intro k'; eapply wmap_aupdate; eauto|].
      destruct B as [B F]. split; [|exact F]. exists (sn_window sn). unfold wmap. rewrite L. auto.
    + destruct (IH (aupdate outs k sn') (AllW_aupdate _ _ _ HW Iv) H) as (A1 & A2 & A3).
      split; [exact A1|]. split.
      * intro k'. rewrite A2. eapply wmap_aupdate; eauto.
      * destruct r as [[[sid tok] [[[st e] fresh] eos]]|]; [|exact I].
        destruct A3 as [(w & Hw & Bw) F]. split; [|exact F]. exists w. split; [|exact Bw].
        rewrite <- Hw. symmetry. eapply wmap_aupdate; eauto.
Qed.

Lemma try_streams_in outs order cap fl outs' sid tok fp :
  try_streams outs order cap fl = (outs', Some (sid, tok, fp)) -> In (sid, tok) order.
Proof.
  revert outs. induction order as [|[k t] rest IH]; intros outs H; cbn [try_streams] in H; [discriminate|].
  destruct (alookup outs k) as [sn|]; [|right; eapply IH; eauto].
  destruct (snd_try_load sn fl _) as [sn' r]. destruct r as [fp0|].
  - injection H as _ <- <- _. left; reflexivity.
  - right. eapply IH; eauto.
Qed.

Definition Dinv (s : ds) : Prop := AllW (d_outs s) /\ sent_data (d_fs s) <= max_data (d_fs s).

(* try_load_data_into_once.  The exact charge says that post_sent and return_back do not underflow:
   load_once answers their panic by leaving the whole credit charged.  That credit() itself answers
   in such a state is part of c11_limits_ds *)
Lemma load_once_charge v s cap :
  Dinv s ->
  let '(r, s', _) := load_once v s cap in
  Dinv s' /\ max_data (d_fs s') = max_data (d_fs s)
  /\ (forall k, wmap (d_outs s') k = wmap (d_outs s) k)
  /\ match r with
     | None => sent_data (d_fs s') = sent_data (d_fs s)
     | Some (_, _, fs) =>
       exists (sid off len : N) (fin fresh : bool),
         fs = [FStream sid off len fin]
         /\ sent_data (d_fs s') = sent_data (d_fs s) + (if fresh then len else 0)
         /\ (exists w, wmap (d_outs s) sid = Some w /\ off + len <= w)
     end.
Proof.
  intros [HW Hle]. unfold load_once.
  destruct (cap <? STREAM_FRAME_MAX); [split; [split; assumption|auto]|].
  destruct (sc_credit (d_fs s) cap) as [[[c1 q] blk]|] eqn:EC; [|split; [split; assumption|auto]].
  destruct (try_streams (d_outs s) (load_order v s) cap q) as [outs' r] eqn:T.
  destruct (try_streams_spec _ _ _ _ _ _ HW T) as (A1 & A2 & A3).
  destruct r as [[[sid tok] [[[st e] fresh] eos]]|].
  - destruct A3 as [(w & Hw & Bw) F]. cbn zeta.
    set (fb := if fresh then e - st else 0).
    assert (Hfb : fb <= q) by (unfold fb; destruct fresh; [apply F; reflexivity|apply N.le_0_l]).
    destruct (sc_credit_used _ _ _ _ _ fb EC Hfb) as (c2 & -> & -> & S2 & M2 & B2).
    unfold Dinv. cbn [with_emitted with_cursor with_fs with_outs d_fs d_outs].
    split; [split; [exact A1|exact B2]|]. split; [exact M2|]. split; [exact A2|].
    exists sid, st, (e - st), eos, fresh. split; [reflexivity|]. split; [exact S2|].
    exists w. split; [exact Hw|clear - Bw; lia].
  - destruct (sc_credit_used _ _ _ _ _ 0 EC (N.le_0_l q)) as (c2 & _ & P & S2 & M2 & B2).
    rewrite N.sub_0_r in P. rewrite N.add_0_r in S2. rewrite P.
    unfold Dinv. cbn [with_fs with_outs d_fs d_outs].
    split; [split; [exact A1|exact B2]|]. split; [exact M2|]. split; [exact A2|exact S2].
Qed.

Definition SameSL (s s' : ds) : Prop :=
  d_role s' = d_role s /\ d_l s' = d_l s /\ d_r s' = d_r s /\ d_lq s' = d_lq s.
Lemma SameSL_refl s : SameSL s s.
Proof. repeat split. Qed.

(* [s2 = s']: the loop goes on from the state that is reported *)
Lemma load_once_shape v s cap :
  let '(r, s', _) := load_once v s cap in
  SameSL s s'
  /\ match r with
     | Some (s2, _, fs) =>
       s2 = s' /\ exists sid tok off len fin, fs = [FStream sid off len fin] /\ In (sid, tok) (load_order v s)
     | None => True
     end.
Proof.
  unfold load_once, SameSL. destruct (cap <? STREAM_FRAME_MAX); [repeat split|].
  destruct (sc_credit (d_fs s) cap) as [[[fs1 credit] blk]|]; [|repeat split].
  destruct (try_streams (d_outs s) (load_order v s) cap credit) as [outs' [[[sid tok] [[[st e] fresh] eos]]|]] eqn:T;
    [|repeat split].
  apply try_streams_in in T. repeat split. exists sid, tok, st, (e - st), eos. split; [reflexivity|exact T].
Qed.

Lemma load_loop_inv (P : ds -> list frame -> Prop) v :
  (forall s cap sf, P s sf ->
     let '(r, s', _) := load_once v s cap in
     P s' (sf ++ match r with Some (_, _, f) => f | None => [] end)) ->
  forall fuel s cap sf cf any, P s sf ->
    let '(s', _, sf', _, _) := load_loop v fuel s cap sf cf any in P s' sf'.
Proof.
  intros HP. induction fuel as [|k IH]; intros s cap sf cf any H; cbn [load_loop]; [exact H|].
  specialize (HP s cap sf H). pose proof (load_once_shape v s cap) as E.
  destruct (load_once v s cap) as [[[[[s2 cap'] f]|] s'] c]; [|rewrite app_nil_r in HP; exact HP].
  destruct E as (_ & -> & _). apply IH, HP.
Qed.

Lemma ds_load_inv (P : ds -> Prop) v :
  (forall s cap, P s -> let '(_, s', _) := load_once v s cap in P s') ->
  forall s cap, P s -> P (fst (ds_load v s cap)).
Proof.
  intros HP s cap H. unfold ds_load.
  pose proof (load_loop_inv (fun s _ => P s) v (fun s cap _ => HP s cap)
                            (N.to_nat (N.min cap 65536 / 2 + 2)) s cap [] [] false H) as L.
  destruct (load_loop v _ s cap [] [] false) as [[[[s' room] sf] cf] any]. exact L.
Qed.

Lemma load_once_SameSL v s0 s cap : SameSL s0 s -> let '(_, s', _) := load_once v s cap in SameSL s0 s'.
Proof.
  intros (A1 & A2 & A3 & A4). pose proof (load_once_shape v s cap) as B.
  destruct (load_once v s cap) as [[r s'] c]. destruct B as [(B1 & B2 & B3 & B4) _].
  repeat split; congruence.
Qed.

Lemma load_loop_frame_fs v fuel s cap sf cf any :
  Dinv s ->
  let '(s', _, _, _, _) := load_loop v fuel s cap sf cf any in
  d_l s' = d_l s /\ d_r s' = d_r s /\ d_lq s' = d_lq s /\ d_role s' = d_role s.
Proof.
  intros _.
  pose proof (load_loop_inv (fun s' _ => SameSL s s') v (fun s1 cap1 _ => load_once_SameSL v s s1 cap1)
                            fuel s cap sf cf any (SameSL_refl s)) as H.
  destruct (load_loop v fuel s cap sf cf any) as [[[[s' room] sf'] cf'] any']. unfold SameSL in H. tauto.
Qed.

Definition frame_in_window (outs : list (N * sender)) (f : frame) : Prop :=
  match f with
  | FStream sid off len _ => exists w, wmap outs sid = Some w /\ off + len <= w
  | _ => True
  end.
Definition frame_len (f : frame) : N := match f with FStream _ _ len _ => len | _ => 0 end.
Fixpoint frames_len (l : list frame) : N := match l with [] => 0 | f :: t => frame_len f + frames_len t end.
Lemma frames_len_app a b : frames_len (a ++ b) = frames_len a + frames_len b.
Proof. induction a as [|x t IH]; cbn [frames_len app]; lia. Qed.

(* a LOAD that began in s0 has reached s with the STREAM frames sf *)
Definition Loading (s0 s : ds) (sf : list frame) : Prop :=
  Dinv s /\ (forall k, wmap (d_outs s) k = wmap (d_outs s0) k)
  /\ Forall (frame_in_window (d_outs s0)) sf
  /\ sent_data (d_fs s0) <= sent_data (d_fs s) <= sent_data (d_fs s0) + frames_len sf
  /\ max_data (d_fs s) = max_data (d_fs s0).

Lemma Loading_once v s0 s cap sf :
  Loading s0 s sf ->
  let '(r, s', _) := load_once v s cap in
  Loading s0 s' (sf ++ match r with Some (_, _, f) => f | None => [] end).
Proof.
  intros (I & HWm & HF & Hb & HM). pose proof (load_once_charge v s cap I) as C.
  destruct (load_once v s cap) as [[r s'] c]. destruct C as (I' & M & Wm & C).
  split; [exact I'|]. split; [intro k; rewrite Wm; apply HWm|]. rewrite M.
  destruct r as [[[s2 cap'] f]|]; [|rewrite app_nil_r, C; auto].
  destruct C as (sid & off & len & fin & fresh & -> & Hs & (w & Hw & Bw)).
  rewrite frames_len_app. cbn [frames_len frame_len]. split; [|split; [destruct fresh; lia|exact HM]].
  apply Forall_app. split; [exact HF|]. constructor; [|constructor]. exists w. rewrite <- HWm. auto.
Qed.

(* The Sid components see a DataStreams step as a run of their own operations: the local ids as a
   list of [lop] without a rejection, RemoteStreamIds + listener as a list of [rop] ([Sim]).
   [Tracks] adds what else all operations but HANDSHAKE and LOAD have in common: the connection-level
   controller keeps its charge and does not lower its limit, and every sender stays within its window. *)
Definition rl_of (s : ds) (y : list N * list N) : rl := mkrl (d_r s) (d_lq s) y.

(* y: the ids accept has yielded so far *)
Definition Sim (v : variant) (s : ds) (y : list N * list N) (s' : ds) (y' : list N * list N) : Prop :=
  d_role s' = d_role s
  /\ exists rops, rl_exec false (fix27 v) (peer_of (d_role s)) rops (rl_of s y) = rl_of s' y'.

Definition Lsim (s s' : ds) : Prop :=
  exists lops, Forall no_reject lops /\ d_l s' = fst (l_exec (d_role s) (d_l s) lops).

Definition Tracks (v : variant) (s : ds) (y : list N * list N) (s' : ds) (y' : list N * list N) : Prop :=
  Sim v s y s' y' /\ Lsim s s'
  /\ (sent_data (d_fs s') = sent_data (d_fs s) /\ max_data (d_fs s) <= max_data (d_fs s'))
  /\ (AllW (d_outs s) -> AllW (d_outs s')).

Lemma Sim_same v s y s' : d_role s' = d_role s -> d_r s' = d_r s -> d_lq s' = d_lq s -> Sim v s y s' y.
Proof. intros H1 H2 H3. split; [exact H1|]. exists []. unfold rl_of. cbn. rewrite H2, H3. reflexivity. Qed.

Lemma Sim_trans v s y s1 y1 s2 y2 : Sim v s y s1 y1 -> Sim v s1 y1 s2 y2 -> Sim v s y s2 y2.
Proof.
  intros [R1 [o1 E1]] [R2 [o2 E2]]. split; [congruence|]. exists (o1 ++ o2).
  unfold rl_exec in *. rewrite fold_left_app, E1. rewrite R1 in E2. exact E2.
Qed.

Lemma l_exec_app r s a b :
  fst (l_exec r s (a ++ b)) = fst (l_exec r (fst (l_exec r s a)) b).
Proof.
  revert s. induction a as [|o t IH]; intro s; cbn [app l_exec]; [reflexivity|].
  destruct (l_step r s o) as [s1 out]. specialize (IH s1).
  destruct (l_exec r s1 (t ++ b)) as [s2 outs]. destruct (l_exec r s1 t) as [s3 outs3]. cbn [fst] in *. exact IH.
Qed.

Lemma Lsim_trans s s1 s2 : d_role s1 = d_role s -> Lsim s s1 -> Lsim s1 s2 -> Lsim s s2.
Proof.
  intros R (l1 & N1 & L1) (l2 & N2 & L2). exists (l1 ++ l2). split; [apply Forall_app; auto|].
  rewrite l_exec_app, <- L1, <- R. exact L2.
Qed.

Lemma Tracks_trans v s y s1 y1 s2 y2 : Tracks v s y s1 y1 -> Tracks v s1 y1 s2 y2 -> Tracks v s y s2 y2.
Proof.
  intros (S1 & L1 & [F1 M1] & W1) (S2 & L2 & [F2 M2] & W2).
  split; [eapply Sim_trans; eauto|]. split; [exact (Lsim_trans _ _ _ (proj1 S1) L1 L2)|].
  split; [split; [congruence|eapply N.le_trans; eauto]|auto].
Qed.

Lemma Tracks_sim v s y s' y' :
  Sim v s y s' y' -> d_l s' = d_l s -> d_fs s' = d_fs s -> (AllW (d_outs s) -> AllW (d_outs s')) ->
  Tracks v s y s' y'.
Proof.
  intros S L F W. split; [exact S|]. split; [exists []; split; [constructor|exact L]|].
  rewrite F. split; [split; [reflexivity|apply N.le_refl]|exact W].
Qed.

Lemma Tracks_tables v s y s' :
  d_role s' = d_role s -> d_l s' = d_l s -> d_r s' = d_r s -> d_lq s' = d_lq s -> d_fs s' = d_fs s ->
  (AllW (d_outs s) -> AllW (d_outs s')) -> Tracks v s y s' y.
Proof. intros. apply Tracks_sim; auto. apply Sim_same; assumption. Qed.

Lemma Tracks_refl v s y : Tracks v s y s y.
Proof. apply Tracks_tables; auto. Qed.

Lemma Tracks_update v s y k sn sn' :
  alookup (d_outs s) k = Some sn -> (Winv sn -> Winv sn') ->
  Tracks v s y (with_outs s (aupdate (d_outs s) k sn')) y.
Proof. intros L W. apply Tracks_tables; auto. intro HW. apply AllW_aupdate; [exact HW|]. apply W. eapply HW; eauto. Qed.

Lemma Tracks_local v s y l' lops :
  Forall no_reject lops -> l' = fst (l_exec (d_role s) (d_l s) lops) -> Tracks v s y (with_l s l') y.
Proof.
  intros NR E. split; [apply Sim_same; reflexivity|]. split; [exists lops; auto|].
  split; [split; [reflexivity|apply N.le_refl]|auto].
Qed.

Lemma inject_finish_tracks v s y fresh fs : Tracks v s y (fst (inject_finish s fresh fs)) y.
Proof.
  unfold inject_finish. destruct (on_new_rcvd (d_fr s) fresh) as [fr' [m| |]]; apply Tracks_tables; auto.
Qed.

Lemma inject_fail_tracks v s y e fs : Tracks v s y (fst (inject_fail s e fs)) y.
Proof. apply Tracks_tables; auto. Qed.

Lemma create_remote_spec s d idxs :
  d_fs (create_remote s d idxs) = d_fs s /\ d_l (create_remote s d idxs) = d_l s
  /\ d_r (create_remote s d idxs) = d_r s /\ d_role (create_remote s d idxs) = d_role s
  /\ (AllW (d_outs s) -> AllW (d_outs (create_remote s d idxs)))
  /\ d_lq (create_remote s d idxs) = qset (d_lq s) d (qget (d_lq s) d ++ map (sid_of (peer_of (d_role s)) d) idxs).
Proof.
  revert s. induction idxs as [|i t IH]; intro s; cbn [create_remote map].
  - rewrite app_nil_r. destruct d, (d_lq s); repeat (split; [reflexivity|]); (split; [exact (fun H => H)|reflexivity]).
  - match goal with |- context [create_remote ?x d t] => set (s2 := x) end.
    destruct (IH s2) as (I1 & I2 & I3 & I4 & I5 & I6). rewrite I1, I2, I3, I4, I6. clear IH I1 I2 I3 I4 I6.
    assert (W : AllW (d_outs s) -> AllW (d_outs s2))
      by (intro HW; destruct d; [apply AllW_ainsert; [exact HW|apply Winv_new]|exact HW]).
    destruct d; cbn [s2 d_lq d_role with_lq with_outs with_rcv qget qset fst snd]; rewrite <- app_assoc;
      repeat (split; [reflexivity|]); (split; [auto|reflexivity]).
Qed.

(* DataStreams::try_accept_sid = one RUse of the component: the listener queue grows by exactly the
   streams RemoteStreamIds reports as new *)
Lemma try_accept_tracks v s y sid s1 f : ds_try_accept v s sid = inl (s1, f) -> Tracks v s y s1 y.
Proof.
  unfold ds_try_accept.
  destruct (try_accept_sid false (fix27 v) (d_r s) (sid_dir sid) (sid_idx sid)) as [[r' res] up] eqn:E.
  destruct res; intro H; [discriminate H| |]; injection H as <- <-; [apply Tracks_refl|].
  destruct (create_remote_spec (with_r s r') (sid_dir sid) (need_create first last)) as (C1 & C2 & C3 & C4 & C5 & C6).
  apply Tracks_sim; auto. split; [exact C4|]. exists [RUse (sid_dir sid) (sid_idx sid)].
  unfold rl_exec, rl_of. cbn [fold_left rl_step rl_s rl_q rl_y]. rewrite E, C3, C6. reflexivity.
Qed.

Lemma check_sid_tracks v s y sid side s1 f : ds_check_sid v s sid side = inl (s1, f) -> Tracks v s y s1 y.
Proof.
  unfold ds_check_sid.
  destruct (negb (role_eqb (sid_role sid) (d_role s))); destruct side; try destruct (sid_dir sid);
    try discriminate; try apply try_accept_tracks; intro H; injection H as <- <-; apply Tracks_refl.
Qed.

(* the frame handlers start alike: the id is checked (and the stream accepted), then the handler
   proper runs on the state that results *)
Lemma after_check_tracks v s y sid side (k : ds -> list frame -> ds * list Z) :
  (forall s1 f1, Tracks v s1 y (fst (k s1 f1)) y) ->
  Tracks v s y (fst (match ds_check_sid v s sid side with
                     | inr e => inject_fail s e []
                     | inl (s1, f1) => k s1 f1
                     end)) y.
Proof.
  intro K. destruct (ds_check_sid v s sid side) as [[s1 f1]|e] eqn:C; [|apply inject_fail_tracks].
  eapply Tracks_trans; [eapply check_sid_tracks; eauto|apply K].
Qed.

Lemma end_of_stream_tracks v s y sid : Tracks v s y (fst (ds_end_of_stream v s sid)) y.
Proof.
  unfold ds_end_of_stream. destruct (role_eqb (sid_role sid) (d_role s)); [apply Tracks_tables; auto|].
  destruct (on_end_of_stream (fix27 v) (d_r s) (sid_dir sid) (sid_idx sid)) as [r' up] eqn:E.
  apply Tracks_sim; auto. split; [reflexivity|]. exists [REnd (sid_dir sid) (sid_idx sid)].
  unfold rl_exec, rl_of. cbn [fold_left rl_step rl_s rl_q rl_y]. rewrite E. reflexivity.
Qed.

Lemma shutdown_receive_tracks v s y sid : Tracks v s y (fst (ds_shutdown_receive v s sid)) y.
Proof.
  unfold ds_shutdown_receive. destruct (sid_dir sid); [apply Tracks_tables; auto|apply end_of_stream_tracks].
Qed.

(* the common end of STREAM and RESET_STREAM *)
Lemma store_recver_tracks v s y sid r' (inset : bool) fresh f1 :
  Tracks v s y (fst (let '(s3, f3) := if inset then (with_rcv s (aupdate (d_rcv s) sid r'), [])
                                      else ds_shutdown_receive v (with_rcv s (aupdate (d_rcv s) sid r')) sid
                     in inject_finish s3 fresh (f1 ++ f3))) y.
Proof.
  pose proof (shutdown_receive_tracks v (with_rcv s (aupdate (d_rcv s) sid r')) y sid) as T.
  destruct inset; [|destruct (ds_shutdown_receive v _ sid) as [s3 f3]];
    (eapply Tracks_trans; [|apply inject_finish_tracks]).
  - apply Tracks_tables; auto.
  - eapply Tracks_trans; [|exact T]. apply Tracks_tables; auto.
Qed.

Lemma hand_recver_tracks v s y sid : Tracks v s y (hand_recver s sid) y.
Proof. unfold hand_recver. destruct (alookup (d_rcv s) sid); apply Tracks_tables; auto. Qed.

Lemma hand_sender_tracks v s y sid w : Tracks v s y (hand_sender s sid w) y.
Proof.
  unfold hand_sender. destruct (alookup (d_outs s) sid) as [sn|] eqn:L; [|apply Tracks_tables; auto].
  apply (Tracks_update v s y sid sn _ L). intro I.
  apply (Winv_shape (match w with Some x => arc_update_window sn x | None => sn end)); auto.
  destruct w; [apply arc_update_Winv|]; exact I.
Qed.

(* the ids handed to the application, read off the observation of an ACCEPT *)
Definition accept_yield (o : op) (obs : list Z) (y : list N * list N) : list N * list N :=
  match o with
  | OAccept d =>
    match obs with
    | [1%Z; z; _] => qset y d (qget y d ++ [Z.to_N z])
    | _ => y
    end
  | _ => y
  end.

Lemma pop_tracks v s y d sid q :
  qget (d_lq s) d = sid :: q ->
  Tracks v s y (with_lq s (qset (d_lq s) d q)) (qset y d (qget y d ++ [sid])).
Proof.
  intro Q. apply Tracks_sim; auto. split; [reflexivity|]. exists [RPop d].
  unfold rl_exec, rl_of. cbn [fold_left rl_step rl_s rl_q rl_y]. rewrite Q. reflexivity.
Qed.

Lemma ds_step_tracks v s y o :
  Tracks v s y (fst (ds_step v s o)) (accept_yield o (snd (ds_step v s o)) y)
  \/ (exists rej, o = OHandshake rej) \/ (exists cap, o = OLoad cap).
Proof.
  destruct o as [rej|d|sid len|sid|sid room|d|cap|sid off len fin|sid err final|sid err|sid w|d w|d w|w|sid w|k];
    try solve [right; eauto]; left;
    unfold ds_step; (destruct (d_closed s); [apply Tracks_refl|]); cbn [accept_yield].
  - unfold ds_open. destruct (open_send_window v d (d_mem s) (remote_params s)) as [w|]; [|apply Tracks_refl].
    destruct (poll_alloc_sid (d_role s) (d_l s) d) as [l' res] eqn:E.
    destruct res; try apply Tracks_refl.
    eapply Tracks_trans; [apply (Tracks_local v s y l' [LAlloc d]); [repeat constructor|]|].
    { cbn [l_exec l_step]. rewrite E. reflexivity. }
    destruct d; apply Tracks_tables; auto; intro HW; (apply AllW_ainsert; [exact HW|apply Winv_new]).
  - unfold ds_write, handed_sender. destruct (alookup (d_outs s) sid) as [sn|] eqn:L; [|apply Tracks_refl].
    destruct (sn_handed sn); [|apply Tracks_refl].
    destruct (sn_state sn) eqn:St; try apply Tracks_refl;
      (destruct (sn_shut sn); [apply Tracks_refl|]);
      (destruct (sn_window sn <=? sn_written sn); [apply Tracks_refl|]);
      apply (Tracks_update v s y sid sn _ L); intro W; (apply p_c11_window_write; [exact W|congruence]).
  - unfold ds_shutdown, handed_sender. destruct (alookup (d_outs s) sid) as [sn|] eqn:L; [|apply Tracks_refl].
    destruct (sn_handed sn); [|apply Tracks_refl].
    destruct (sn_state sn) eqn:St; try apply Tracks_refl;
      apply (Tracks_update v s y sid sn _ L); intro W; apply (Winv_shape sn _ W); try reflexivity; cbn [sn_state]; intro E; left; congruence.
  - unfold ds_read. destruct (alookup (d_rcv s) sid) as [r|]; [|apply Tracks_refl].
    destruct (rc_handed r); [|apply Tracks_refl].
    destruct (rc_read r room) as [[[r' code] n] m]. apply Tracks_tables; auto.
  - unfold ds_accept. destruct d.
    + destruct (d_hs s); [|apply Tracks_refl].
      destruct (fst (d_lq s)) as [|sid q] eqn:Q; [apply Tracks_refl|].
      cbn [fst snd]. rewrite N2Z.id.
      eapply Tracks_trans; [|apply hand_recver_tracks]. eapply Tracks_trans; [|apply hand_sender_tracks].
      exact (pop_tracks v s y Bi sid q Q).
    + destruct (snd (d_lq s)) as [|sid q] eqn:Q; [apply Tracks_refl|].
      cbn [fst snd]. rewrite N2Z.id.
      eapply Tracks_trans; [|apply hand_recver_tracks]. exact (pop_tracks v s y Uni sid q Q).
  - unfold ds_recv_stream.
    apply after_check_tracks. intros s1 f1.
    destruct (in_set s1 sid) as [r|]; [|apply inject_finish_tracks].
    destruct (rc_recv_data v r off len fin) as [r'|e]; [|apply inject_fail_tracks].
    apply store_recver_tracks.
  - unfold ds_recv_reset.
    apply after_check_tracks. intros s1 f1.
    destruct (in_set s1 sid) as [r|]; [|apply inject_finish_tracks].
    destruct (rc_recv_reset v r final) as [[r' fresh]|e]; [|apply inject_fail_tracks].
    apply (store_recver_tracks v s1 y sid r' false).
  - unfold ds_recv_stop.
    apply after_check_tracks. intros s1 f1.
    destruct (alookup (d_outs s1) sid) as [sn|] eqn:L; [|apply inject_finish_tracks].
    pose proof (be_stopped_Winv sn) as B. destruct (snd_be_stopped sn) as [sn' fin].
    eapply Tracks_trans; [|apply inject_finish_tracks]. exact (Tracks_update v s1 y sid sn sn' L B).
  - unfold ds_recv_maxsd.
    apply after_check_tracks. intros s1 f1.
    destruct (alookup (d_outs s1) sid) as [sn|] eqn:L; [|apply inject_finish_tracks].
    eapply Tracks_trans; [|apply inject_finish_tracks].
    exact (Tracks_update v s1 y sid sn _ L (arc_update_Winv sn w)).
  - unfold ds_recv_maxstreams. destruct (increase_limit (d_l s) d w) as [l'|] eqn:E; [|apply inject_finish_tracks].
    eapply Tracks_trans; [|apply inject_finish_tracks].
    apply (Tracks_local v s y l' [LIncrease d w]); [repeat constructor|].
    cbn [l_exec l_step]. rewrite E. reflexivity.
  - unfold ds_recv_sblocked. destruct (recv_streams_blocked (fix27 v) (d_r s) d w) as [r' up] eqn:E.
    eapply Tracks_trans; [|apply inject_finish_tracks].
    apply Tracks_sim; auto. split; [reflexivity|]. exists [RBlocked d w].
    unfold rl_exec, rl_of. cbn [fold_left rl_step rl_s rl_q rl_y]. rewrite E. reflexivity.
  - destruct (sc_increase_spec (d_fs s) w) as [E M].
    split; [apply Sim_same; reflexivity|]. split; [exists []; split; [constructor|reflexivity]|].
    split; [cbn [fst with_fs d_fs]; rewrite E, M; split; [reflexivity|apply N.le_max_l]|auto].
  - unfold ds_recv_sdblocked.
    apply after_check_tracks. intros s1 f1. apply inject_finish_tracks.
  - unfold ds_lose. destruct (nth_error (d_emitted s) (N.to_nat k)) as [[[[sid st] len] fin]|]; [|apply Tracks_refl].
    destruct (alookup (d_outs s) sid) as [sn|] eqn:L; [|apply Tracks_refl].
    apply (Tracks_update v s y sid sn _ L). apply p_c11_window_loss.
Qed.

(* the caller-side conditions: a handshake that is NOT a rejection never shrinks the window of a
   stream whose FIN is out (`debug_assert!(max_data >= self.max_data, "Cannot reduce sndbuf size")`
   in SendBuf::extend); a REJECTED handshake (the streams forget their sent state, the controller
   restarts its charge) needs the repaired revise_max_data (F34; as it was, sent_data > max_data
   afterwards), and the stream-level invariant Winv ("once the FIN is out every written byte is in
   the BufMap") survives it for a finished stream only if the new window still covers what was
   written *)
Definition op_ok (v : variant) (s : ds) (o : op) : Prop :=
  match o with
  | OHandshake rej =>
    (rej = true -> fix34 v = true)
    /\ forall sid sn, alookup (d_outs s) sid = Some sn -> sn_state sn = SDataSent ->
                      (if rej then sn_written sn else sn_window sn) <= revise_send_window (d_rem s) (sid_dir sid)
  | _ => True
  end.

Definition op_no_reject (o : op) : Prop := match o with OHandshake true => False | _ => True end.

(* What one operation does, seen from the components; HANDSHAKE and LOAD are the two that [Tracks]
   does not cover. *)
Definition Step (v : variant) (o : op) (s : ds) (y : list N * list N) (s' : ds) (y' : list N * list N) : Prop :=
  Sim v s y s' y'
  /\ (exists lops, (op_no_reject o -> Forall no_reject lops) /\ d_l s' = fst (l_exec (d_role s) (d_l s) lops))
  /\ (Dinv s -> op_ok v s o -> Dinv s')
  /\ ((forall cap, o <> OLoad cap) -> (fix34 v = true -> o <> OHandshake true) ->
      sent_data (d_fs s') = sent_data (d_fs s)).

Lemma Tracks_Step v o s y s' y' : Tracks v s y s' y' -> Step v o s y s' y'.
Proof.
  intros (S & (lops & NR & L) & [F M] & W). split; [exact S|]. split; [exists lops; auto|].
  split; [intros [HW Hle] _; split; [auto|rewrite F; eapply N.le_trans; eauto]|intros _ _; exact F].
Qed.

Lemma ds_step_spec v s y o : Step v o s y (fst (ds_step v s o)) (accept_yield o (snd (ds_step v s o)) y).
Proof.
  destruct (ds_step_tracks v s y o) as [T|[[rejected ->]|[cap ->]]]; [exact (Tracks_Step _ _ _ _ _ _ T)|..];
    unfold ds_step; (destruct (d_closed s); [apply Tracks_Step, Tracks_refl|]); cbn [accept_yield].
  - unfold ds_handshake. destruct (d_hs s); [apply Tracks_Step, Tracks_refl|]. cbn [fst].
    split; [apply Sim_same; reflexivity|]. split; [|split]; cbn [d_l d_role d_outs d_fs].
    + exists [LRevise rejected (p_msb (d_rem s)) (p_msu (d_rem s))]. split; [|reflexivity].
      intro NR. constructor; [destruct rejected; [contradiction|exact I]|constructor].
    + intros [HW Hle] [FX G]. split; cbn [d_outs d_fs].
      * intros k sn' L'. destruct (revise_outs_lookup _ _ _ _ _ L') as (sn & L & [-> | ->]); [eapply HW; eauto|].
        apply revise_Winv; [eapply HW; eauto|]. intro St. eapply G; eauto.
      * destruct (sc_revise_spec (fix34 v) (d_fs s) rejected (p_md (d_rem s))) as [-> ->].
        destruct rejected; [rewrite (FX eq_refl)|]; lia.
    + intros _ NR. rewrite (proj1 (sc_revise_spec _ _ _ _)). destruct rejected; [|reflexivity].
      destruct (fix34 v); [destruct (NR eq_refl eq_refl)|reflexivity].
  - destruct (ds_load_inv (SameSL s) v (load_once_SameSL v s) s cap (SameSL_refl s)) as (R & L & SR & SQ).
    split; [apply Sim_same; assumption|]. split; [exists []; split; [constructor|exact L]|].
    split; [|intros NL; destruct (NL cap eq_refl)]. intros Iv _. apply (ds_load_inv Dinv); [|exact Iv].
    intros s1 cap1 I1. pose proof (load_once_charge v s1 cap1 I1) as C.
    destruct (load_once v s1 cap1) as [[r s'] c]. apply C.
Qed.

Fixpoint all_ok (v : variant) (s : ds) (ops : list op) : Prop :=
  match ops with
  | [] => True
  | o :: rest => op_ok v s o /\ all_ok v (fst (ds_step v s o)) rest
  end.

(* run with the ghost list of yielded ids *)
Fixpoint ds_exec_y (v : variant) (s : ds) (y : list N * list N) (ops : list op) : ds * (list N * list N) :=
  match ops with
  | [] => (s, y)
  | o :: rest => ds_exec_y v (fst (ds_step v s o)) (accept_yield o (snd (ds_step v s o)) y) rest
  end.

Lemma ds_exec_y_state v s y ops : fst (ds_exec_y v s y ops) = ds_exec v s ops.
Proof. revert s y. induction ops as [|o rest IH]; intros s y; cbn [ds_exec_y ds_exec]; [reflexivity|apply IH]. Qed.

Lemma ds_exec_sim v ops s y :
  let '(s', y') := ds_exec_y v s y ops in
  Sim v s y s' y' /\ (Forall op_no_reject ops -> Lsim s s').
Proof.
  revert s y. induction ops as [|o rest IH]; intros s y; cbn [ds_exec_y].
  - split; [apply Sim_same; reflexivity|]. exists []. split; [constructor|reflexivity].
  - destruct (ds_step_spec v s y o) as (S1 & (l1 & N1 & L1) & _).
    specialize (IH (fst (ds_step v s o)) (accept_yield o (snd (ds_step v s o)) y)).
    destruct (ds_exec_y v _ _ rest) as [s' y']. destruct IH as [S2 L2].
    split; [exact (Sim_trans _ _ _ _ _ _ _ S1 S2)|]. intro F. inversion F; subst.
    apply (Lsim_trans _ _ _ (proj1 S1)); [exists l1|]; auto.
Qed.

Lemma load_order_below_limit v s sid tok :
  fix33 v = true -> In (sid, tok) (load_order v s) -> sid_role sid = d_role s ->
  sid_idx sid < pget (l_max (d_l s)) (sid_dir sid).
Proof.
  intros HV H Hr. unfold load_order in H. apply filter_In in H. destruct H as [_ H].
  unfold stream_allowed, opened_streams in H. cbn [fst] in H. rewrite HV, Hr in H.
  assert (E : role_eqb (d_role s) (peer_of (d_role s)) = false) by (destruct (d_role s); reflexivity).
  rewrite E in H. cbn [orb] in H.
  destruct (sid_dir sid); cbn [dir_eqb andb orb] in H.
  - rewrite orb_false_r in H. apply N.ltb_lt in H. lia.
  - apply N.ltb_lt in H. lia.
Qed.
