(* C20 — lemmas about the serde schema model (Model/Serde.v) and the regenerated schema table. *)
From Coq Require Import List ZArith Bool String.
From GQ Require Import Model.Serde Generated.QeventSchema.
From GQ Require Export Proofs.SerdeRT.
Import ListNotations.
Local Open Scope Z_scope.

Definition diag_top (s : schema) : list problem :=
  match s with SNamed _ b => diag b | _ => diag s end.

Definition defects_of (tbl : list (str * schema)) : list (str * Z * str) :=
  flat_map (fun ns => map (fun p => (fst ns, fst p, snd p)) (diag_top (snd ns))) tbl.

(* the static defects present in the repository today (known finding F51 = kind 7).  Kind 1 (a field skipped
   when empty without a missing-value, F50) no longer occurs: repaired, `#[serde(default)]` on the 15 fields *)
Definition known_defects : list (str * Z * str) := [
  (k "quic::connectivity::ConnectionState", 7, k "closed")
]%string.

Lemma p_c20_schema_wf : forallb (fun ns => wf (snd ns)) qevent_types = true.
Proof. vm_compute. reflexivity. Qed.

(* F50 repaired: in every type of the table every skipped field (at any depth) has its skipped value as
   missing-value, so the clause `skip_ok || negb skipped` of conformsb holds for every value of every field *)
Lemma p_c20_skips_ok : forallb (fun ns => skips_ok (snd ns)) qevent_types = true.
Proof. vm_compute. reflexivity. Qed.

Definition has_key (key : str) (j : json) : Prop := In key (map fst (members j)).

Lemma field_key_here : forall key sk d s r v l, skipped sk v = false ->
  In key (map fst (ser_fields (FCons key sk d s r) (v :: l))).
Proof. intros key sk d s r v l H. cbn [ser_fields]. rewrite H. left. reflexivity. Qed.

Lemma field_key_later : forall key k0 sk d s r v l, In key (map fst (ser_fields r l)) ->
  In key (map fst (ser_fields (FCons k0 sk d s r) (v :: l))).
Proof. intros key k0 sk d s r v l H. cbn [ser_fields]. rewrite map_app. apply in_or_app. right. exact H. Qed.

Lemma struct_has_key : forall n regs flats any lr lf ex key,
  In key (map fst (ser_fields regs lr)) \/ In key (map fst (ser_flats flats lf)) ->
  has_key key (ser (SNamed n (SStruct regs flats any)) (VStruct lr lf ex)).
Proof.
  intros n regs flats any lr lf ex key H. unfold has_key. cbn [ser members]. rewrite !map_app, !in_app_iff. tauto.
Qed.

Fixpoint all_newtype (vs : variants) : bool :=
  match vs with
  | VNil => true
  | VCons _ untag sh r => negb untag && negb (is_unit sh) && all_newtype r
  end.

(* a top-level Event: first regular field `time` (never skipped), then a flattened adjacently tagged EventData
   with tag `name` / content `data` whose variants all carry a payload *)
Lemma mandatory_generic : forall n0 key0 d0 s0 rest n1 tag c vs any v, all_newtype vs = true ->
  let s := SNamed n0 (SStruct (FCons key0 SkNever d0 s0 rest) (FLCons (SNamed n1 (SEnum (TAdj tag c) vs)) FLNil) any) in
  conformsb s v = true -> has_key key0 (ser s v) /\ has_key tag (ser s v) /\ has_key c (ser s v).
Proof.
  intros n0 key0 d0 s0 rest n1 tag c vs any v S s C. subst s.
  destruct (conformsb_struct _ _ _ _ C) as (lr & lf & ex & -> & C1 & C2 & _).
  apply conf_fields_cons in C1. destruct C1 as (v0 & lr' & -> & _).
  apply conf_flats_cons in C2. destruct C2 as (vf & lf' & -> & Cf & _).
  destruct (conformsb_enum _ _ _ Cf) as (i & p & name & untag & sh & -> & E & _).
  pose proof (variants_all_nth (fun u sh => negb u && negb (is_unit sh)) all_newtype (fun _ _ _ _ => eq_refl)
                _ _ _ _ _ S E) as U.
  apply andb_true_iff in U as [U1 U2]. apply negb_true_iff in U1, U2. subst untag.
  split; [apply struct_has_key; left; apply field_key_here; reflexivity|].
  split; apply struct_has_key; right; cbn [ser_flats ser]; rewrite (ser_variants_nth _ _ _ _ _ _ _ E); unfold wrap;
    rewrite U2; cbn; auto.
Qed.

Definition rt_fails (s : schema) (v : value) : bool :=
  match de s (ser s v) with Some v' => negb (value_eqb v v') | None => true end.

(* F50 (repaired): PacketsAcked {} — `packet_nubers` is skipped when empty; it now has the empty vector as missing-value *)
Definition w_f50 : value := VStruct [VNone; VSeq []] [] [].
(* ... a packet_sent event whose supported_versions is empty (every ordinary packet_sent) *)
Definition w_f50_sent : value :=
  VStruct [VStruct [VBool true; VEnum 3 VUnit; VSome (VInt 0); VNone; VNone; VNone; VNone; VNone; VNone; VNone; VNone] [] [];
           VNone; VNone; VSeq []; VNone; VNone; VBool false; VNone] [] [].
(* the shapes as they were before the repair: the same schemas without the missing-value of the field *)
Definition PacketsAcked_was : schema := undefault (k "packet_nubers") T_quic_transport_PacketsAcked.
Definition PacketSent_was : schema := undefault (k "supported_versions") T_quic_transport_PacketSent.
(* F51: ConnectionState::Granular(Closed) reads back as Base(Closed) *)
Definition w_f51 : value := VEnum 1 (VEnum 5 VUnit).
(* F52 (repaired): ReferenceTime built with clock_type Monotaonic and the default epoch / any epoch other than Unknow *)
Definition w_f52 : value := VStruct [VEnum 1 VUnit; VEnum 1 (VStr (k "1970-01-01T00:00:00.000Z")); VNone] [] [].
Definition w_f52_built : value := VStruct [VEnum 1 VUnit; VEnum 0 VUnit; VNone] [] [].
(* ReferenceTime as it was before the repair: same validator, a builder that stores the epoch it is given *)
Definition ReferenceTime_was : schema := with_refine 0 T_ReferenceTime.
(* F53: an Event whose custom field is called `time` *)
Definition w_f53 : value :=
  VStruct [VFloat 4607182418800017408; VNone; VNone; VNone; VNone; VNone]
          [VEnum 37 (VStruct [VStr (k "m")] [] [])] [(k "time", JStr (k "x"))].

(* F52: the ReferenceTime builder stores Unknow as epoch whenever the clock is monotonic and the epoch it is given
   otherwise; either way what it builds satisfies the validator *)
Lemma build_norm_reftime : forall c e r f x, exists e',
  build_norm 1 (VStruct (c :: e :: r) f x) = VStruct (c :: e' :: r) f x /\ (e' = e \/ e' = VEnum 0 VUnit)
  /\ reftime_ok (VStruct (c :: e' :: r) f x) = true.
Proof.
  intros c e r f x.
  destruct c as [| | | | | | | | |[|[|i]] q|]; try solve [eexists; split; [reflexivity|auto]].
  destruct e as [| | | | | | | | |[|j] q'|]; eexists; (split; [reflexivity|auto]).
Qed.

Lemma conformsb_struct_regs : forall regs flats any lr lr' lf ex,
  conformsb (SStruct regs flats any) (VStruct lr lf ex) = true -> conf_fields regs lr' = true ->
  conformsb (SStruct regs flats any) (VStruct lr' lf ex) = true.
Proof.
  intros regs flats any lr lr' lf ex C C'. cbn [conformsb] in *. rewrite C'.
  destruct (conf_fields regs lr); [exact C|discriminate].
Qed.

Definition ReferenceTime_fields : schema :=
  match T_ReferenceTime with SNamed _ (SRefine _ s) => s | s => s end.

Lemma p_c20_reference_time_builder : forall v, conformsb ReferenceTime_fields v = true ->
  conformsb T_ReferenceTime (build T_ReferenceTime v) = true
  /\ de T_ReferenceTime (ser T_ReferenceTime (build T_ReferenceTime v)) = Some (build T_ReferenceTime v).
Proof.
  intros v C. unfold ReferenceTime_fields in C. cbn [T_ReferenceTime] in C.
  destruct (conformsb_struct _ _ _ _ C) as (lr & lf & ex & -> & C' & _).
  apply conf_fields_cons in C'. destruct C' as (c & l1 & -> & Cc & _ & C').
  apply conf_fields_cons in C'. destruct C' as (e & l2 & -> & Ce & _ & Cr).
  destruct (conf_fields_cons _ _ _ _ _ _ Cr) as (w & l3 & -> & _ & _ & C').
  destruct l3; [|discriminate].
  (* the builders of the three field types store what they are given *)
  assert (Hc : build T_TimeClockType c = c).
  { destruct c as [| | | | | | | | |i p|]; try reflexivity. destruct i as [|[|[|i]]]; reflexivity. }
  assert (He : build T_TimeEpoch e = e).
  { destruct e as [| | | | | | | | |i p|]; try reflexivity. destruct i as [|[|i]]; reflexivity. }
  assert (Hw : build (SOpt T_RFC3339DateTime) w = w) by (destruct w; reflexivity).
  change (build T_ReferenceTime (VStruct [c; e; w] lf ex))
    with (build_norm 1 (VStruct [build T_TimeClockType c; build T_TimeEpoch e; build (SOpt T_RFC3339DateTime) w] lf ex)).
  rewrite Hc, He, Hw. destruct (build_norm_reftime c e [w] lf ex) as (e' & -> & He' & Ok).
  assert (CC : conformsb T_ReferenceTime (VStruct [c; e'; w] lf ex) = true).
  { change (conformsb T_ReferenceTime (VStruct [c; e'; w] lf ex))
      with (conformsb ReferenceTime_fields (VStruct [c; e'; w] lf ex) && reftime_ok (VStruct [c; e'; w] lf ex)).
    rewrite Ok, andb_true_r. unfold ReferenceTime_fields. cbn [T_ReferenceTime].
    apply (conformsb_struct_regs _ _ _ _ _ _ _ C). cbn [conf_fields skip_ok orb] in Cr |- *. rewrite Cc, Cr.
    destruct He' as [->| ->]; [rewrite Ce|]; reflexivity. }
  split; [exact CC|]. apply roundtrip_all; [reflexivity | exact CC].
Qed.

(* non-vacuity: a packet_sent Event with header, three frames, versions, custom field *)
Definition w_event : value :=
  (VStruct [(VFloat 4607182418800017408); (VSome (VStr [112; 48])); VNone; (VSome (VSeq [(VStr [81; 85; 73; 67])])); (VSome (VStr [97; 98; 99; 100])); VNone] [(VEnum 12 (VStruct [(VStruct [(VBool true); (VEnum 3 (VStruct [] [] [])); (VSome (VInt 4611686018427387903)); VNone; VNone; (VSome (VInt 65535)); (VSome (VBytes [0; 0; 0; 1])); VNone; (VSome (VInt 8)); VNone; (VSome (VBytes [1; 2; 3; 4; 5; 6; 7; 8]))] [] []); (VSome (VSeq [(VEnum 7 (VStruct [(VInt 4); (VInt 0); (VInt 1200); (VBool true); VNone] [] [])); (VEnum 2 (VStruct [(VSome (VFloat 4607182418800017408)); (VSeq [(VSeq [(VInt 1); (VInt 3)])]); VNone; VNone; VNone; (VSome (VInt 7)); VNone] [] [])); (VEnum 19 (VStruct [] [] []))])); VNone; (VSeq [(VBytes [0; 0; 0; 1])]); VNone; (VSome (VInt 7)); (VBool false); (VSome (VEnum 2 (VStruct [] [] [])))] [] []))] [([116; 111; 95; 114; 111; 117; 116; 101; 114], (JBool true))]).

