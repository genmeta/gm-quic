(* Step-level statements about the controller model: which operations touch the window
   ([window_cases]), every Inflight packet was sent in the past, TooManyPtos, the bound on send_quota
   and on what a burst of sends adds, and the concrete histories: the witnesses that refute a clause
   at full strength (F15, F25), the regression history of F16 (these three also in corpus/C13/cc), one
   for non-vacuity. *)
From Coq Require Import List ZArith Bool Lia.
From GQ Require Import Model.Pto Proofs.NewReno Proofs.LossDetect Proofs.Pto.
Import ListNotations.
Local Open Scope Z_scope.

Lemma discard_window c ri e : cwnd (c_reno (discard_epoch c ri e)) = cwnd (c_reno c).
Proof.
  destruct (discard_epoch_core c ri e) as (A & _). rewrite A. unfold space_discard. ccbn.
  apply remove_from_bif_window.
Qed.

Lemma sent_window c ri e pn elic infl bytes :
  cwnd (c_reno (on_packet_sent c ri e pn elic infl bytes)) = cwnd (c_reno c).
Proof.
  destruct (on_packet_sent_core c ri e pn elic infl bytes) as (s & _ & A & _). rewrite A. ccbn.
  now destruct infl.
Qed.

(* Only an accepted ACK (through ack_pass) and an expired timer (through a detection pass) touch the
   window; W reads the new window and the `persistent` flag of the operation *)
Lemma window_cases (W : Z -> bool -> Prop) c ri o :
  W (cwnd (c_reno c)) false ->
  (forall e cev rs s r lost pers, o = OpAck e cev rs -> ack_ok rs = true ->
     ack_pass (c_sp c e) (c_reno c) (i_ld ri) (c_now c) e (fst (hd (0, 0) rs)) cev rs = (s, r, lost, pers) ->
     W (cwnd r) pers) ->
  (forall e s r lost pers, In e epochs ->
     detect_lost (c_sp c e) (c_reno c) (i_ld ri) (c_now c) = (s, r, lost, pers) -> W (cwnd r) pers) ->
  W (cwnd (c_reno (fst (cc_step c ri o)))) (o_pers (snd (cc_step c ri o))).
Proof.
  intros H0 Hack Hdet. apply (cc_step_cases (fun c1 _ p => W (cwnd (c_reno c1)) p)); cbn beta.
  - intros c1 c2 _ p (A & _). now rewrite A.
  - intros c1 _ p e _. now rewrite discard_window.
  - exact H0.
  - intros dt _. exact H0.
  - intros e pn elic infl bytes _ _ _. rewrite sent_window. exact H0.
  - intros e cev rs s r lost pers. apply Hack.
  - intros e s r lost pers _. apply Hdet.
Qed.

Definition InvPast (c : cc) : Prop :=
  forall e p, In p (s_sent (c_sp c e)) -> is_inflight p = true -> p_time p <= c_now c.

Lemma InvPast_step c ri o : op_ok o -> InvPast c -> InvPast (fst (cc_step c ri o)).
Proof.
  intros Ho H x q Hq Hi. destruct (step_moves c ri o) as (N & _ & Q). specialize (N Ho).
  destruct (Q x q Hq Hi) as [Hold|(_ & Hnew)]; [specialize (H x q Hold Hi); lia|exact Hnew].
Qed.

Theorem reach_InvPast c : reach c -> InvPast c.
Proof.
  induction 1; [|now apply InvPast_step].
  intros e p. unfold cc_new. ccbn. destruct (e =? 2); intros [].
Qed.

(* the probes requested and not yet sent, over the three spaces: what c13_probe_or_resolve counts *)
Definition need_total (c : cc) : Z := c_need c 0 + c_need c 1 + c_need c 2.

Lemma p_c13_too_many_ptos c ri :
  let '(c', out) := cc_step c ri OpTick in
  (o_result out = 1 <-> (exists t, c_timer c = Some t /\ t <= c_now c) /\ 6 < c_pto_count c') /\
  (o_result out = 1 -> c_dead c' = true).
Proof.
  cbn [cc_step]. set (fire := match c_timer c with Some t => t <=? c_now c | None => false end).
  assert (Hfire : (exists t, c_timer c = Some t /\ t <= c_now c) <-> fire = true).
  { subst fire. destruct (c_timer c) as [t|].
    - rewrite Z.leb_le. split; [intros (t0 & E & L); now inversion E; subst|intro; now exists t].
    - split; [intros (t0 & E & _)|]; discriminate. }
  clearbody fire. destruct fire; [destruct (on_loss_detection_timeout c ri) as [[c1 lost] pers]|]; cbn [andb].
  1: destruct (6 <? c_pto_count c1) eqn:E6; [apply Z.ltb_lt in E6|apply Z.ltb_ge in E6].
  - cbn. split; [|reflexivity]. split; [intros _; split; [now apply Hfire|exact E6]|reflexivity].
  - (* fired, at most 6: the result is 0 and the pacer bookkeeping keeps pto_count *)
    destruct (c_pending_burst c1);
      [unfold cc_send_quota; destruct (pacer_schedule _ _ _ _ _) as (p0, q0); destruct (c_mtu _ <=? _)|];
      cbn; (split; [split; [discriminate|]|discriminate]); intros (_ & X); lia.
  - (* not fired: the result is 0 *)
    destruct (c_pending_burst c); [destruct (cc_send_quota c ri) as (c2, q)|];
      cbn; (split; [split; [discriminate|]|discriminate]); intros (F & _); apply Hfire in F; discriminate.
Qed.

Lemma sent_step_bif c ri e pn elic infl bytes : reach c -> In e epochs ->
  let c' := fst (cc_step c ri (OpSent e pn elic infl bytes)) in
  bif (c_reno c') <= bif (c_reno c) + (if infl then Z.max 0 bytes else 0) /\ cwnd (c_reno c') = cwnd (c_reno c).
Proof.
  intros Hr He. pose proof (reach_InvA c Hr) as H. cbn zeta. cbn [cc_step].
  destruct (sent_ok c e pn elic infl bytes) eqn:Es; cbn [fst]; [|destruct infl; split; try reflexivity; lia].
  destruct (sent_ok_spec Es) as (_ & Hb).
  set (c1 := on_packet_sent (with_lastpn c e pn) ri e pn elic infl bytes).
  assert (HI : InvA c1) by now apply InvA_sent.
  assert (B1 : bif (c_reno c1) = bif (c_reno c) + (if infl then bytes else 0)).
  { subst c1. destruct (on_packet_sent_core (with_lastpn c e pn) ri e pn elic infl bytes) as (s & _ & -> & _).
    ccbn. destruct infl; cbn; lia. }
  assert (B2 : cwnd (c_reno c1) = cwnd (c_reno c)) by apply (sent_window (with_lastpn c e pn)).
  clearbody c1. destruct (_ && _); [|rewrite B1, B2; split; destruct infl; lia].
  (* the appended discard of the Initial space only takes bytes out *)
  rewrite discard_window, B2. split; [|reflexivity].
  destruct (discard_epoch_core c1 ri 0) as (-> & _).
  destruct (space_discard_ok (InvA_space c1 0 ltac:(cbn; auto) HI)) as (_ & _ & _ & _ & D).
  destruct HI as (_ & T & _ & A). pose proof (flight_nonneg _ (A 0)).
  unfold space_discard in *. ccbn. cbn [fst snd s_sent flight] in D. destruct infl; lia.
Qed.

(* send_quota (after the `fix:` for F16) = min(pacer tokens, room in the window) *)
Lemma quota_bound c ri :
  snd (cc_send_quota c ri) <= window_room c /\
  snd (cc_send_quota c ri) <= pc_tokens (c_pacer (fst (cc_send_quota c ri))) /\
  c_reno (fst (cc_send_quota c ri)) = c_reno c.
Proof.
  unfold cc_send_quota. destruct (pacer_schedule (c_pacer c) _ _ _ _) as (p, q) eqn:E. ccbn.
  unfold pacer_schedule in E.
  destruct (pc_cwnd (c_pacer c) =? cwnd (c_reno c)); injection E as <- <-; ccbn;
    (split; [lia|split; [cbn [pc_tokens]; lia|reflexivity]]).
Qed.

Fixpoint burst (c : cc) (ri : rin) (l : list (Z * Z * bool * bool * Z)) : cc :=
  match l with
  | [] => c
  | (e, pn, elic, infl, bytes) :: rest => burst (fst (cc_step c ri (OpSent e pn elic infl bytes))) ri rest
  end.

Fixpoint burst_bytes (l : list (Z * Z * bool * bool * Z)) : Z :=
  match l with
  | [] => 0
  | (_, _, _, infl, bytes) :: rest => (if infl then Z.max 0 bytes else 0) + burst_bytes rest
  end.

Lemma burst_bytes_nonneg l : 0 <= burst_bytes l.
Proof. induction l as [|[[[[e pn] el] infl] b] rest IH]; cbn [burst_bytes]; [lia|]. destruct infl; lia. Qed.

Lemma burst_bif c ri l : reach c ->
  Forall (fun x => In (fst (fst (fst (fst x)))) epochs) l ->
  bif (c_reno (burst c ri l)) <= bif (c_reno c) + burst_bytes l /\
  cwnd (c_reno (burst c ri l)) = cwnd (c_reno c).
Proof.
  revert c. induction l as [|[[[[e pn] el] infl] b] rest IH]; intros c Hr Hf; cbn [burst burst_bytes] in *.
  - split; lia.
  - inversion Hf as [|? ? He Hrest]; subst. cbn [fst] in He.
    destruct (sent_step_bif c ri e pn el infl b Hr He) as (A & B).
    destruct (IH _ (reachS c ri (OpSent e pn el infl b) Hr He) Hrest) as (C & D). rewrite D, B. split; [lia|reflexivity].
Qed.

Lemma burst_room c ri ri' l : reach c ->
  0 < o_result (snd (cc_step c ri OpQuota)) ->
  Forall (fun x => In (fst (fst (fst (fst x)))) epochs) l ->
  burst_bytes l <= o_result (snd (cc_step c ri OpQuota)) ->
  let c' := burst (fst (cc_step c ri OpQuota)) ri' l in
  bif (c_reno c') <= bif (c_reno c) + window_room c /\ 0 < window_room c /\
  cwnd (c_reno c') = cwnd (c_reno c).
Proof.
  intros Hr Hq Hf Hb. cbn zeta.
  destruct (burst_bif (fst (cc_step c ri OpQuota)) ri' l (reachS c ri OpQuota Hr I) Hf) as (A & B).
  rewrite B. cbn [cc_step] in *.
  destruct (quota_bound c ri) as (Q1 & _ & Q3).
  destruct (cc_send_quota c ri) as (c1, q). cbn [fst snd] in *.
  destruct (c_mtu c1 <=? q); cbn [fst snd o_result] in *; [|lia].
  rewrite Q3 in *. repeat split; lia.
Qed.

Definition run_ops (c : cc) (l : list (rin * cc_op)) : cc * list outcome :=
  fold_left (fun '(c, outs) '(ri, o) => let '(c', out) := cc_step c ri o in (c', outs ++ [out])) l (c, []).

Definition ri0 : rin := default_rin.

(* F15: a server sends one Data packet, nothing is ever acknowledged, 62.125001 ms later a tick
   declares it lost *)
Definition f15_history : list (rin * cc_op) :=
  [(ri0, OpGrant); (ri0, OpSent 2 0 true true 1200); (ri0, OpAdv 62125001); (ri0, OpTick)].

(* F16 regression history (fixed): ten full-size packets fill the window; 30 ms later the pacer
   bucket is full again but send_quota refuses (no room in the window) *)
Definition f16_history : list (rin * cc_op) :=
  [(ri0, OpGrant); (ri0, OpQuota)] ++
  map (fun pn => (ri0, OpSent 2 pn true true 1200)) [0; 1; 2; 3; 4; 5; 6; 7; 8; 9] ++
  [(ri0, OpAdv 30000000); (mkrin 37124999 33000000 16500000 0 0 13636, OpQuota)].

(* F25: six packets in 1 ms, first expiry: three index-consecutive losses take the window from
   12000 to 10800 and then to 5400 in the same event and leave no recovery period open *)
Definition f25_history : list (rin * cc_op) :=
  [(ri0, OpGrant); (ri0, OpSent 2 0 true true 1200); (ri0, OpSent 2 1 true true 1200);
   (ri0, OpSent 2 2 true true 1200); (ri0, OpAdv 1000000); (ri0, OpSent 2 3 true true 1200);
   (ri0, OpSent 2 4 true true 1200); (ri0, OpSent 2 5 true true 1200); (ri0, OpAdv 36125000); (ri0, OpTick)].

(* non-vacuity of the invariants: a history with sends in three spaces, an ACK with two ranges,
   a packet-threshold loss, a discard and a tick is reachable and satisfies bif = sum *)
Definition nonvac_history : list (rin * cc_op) :=
  [(ri0, OpGrant); (ri0, OpSent 0 0 true true 1200); (ri0, OpHs 0); (ri0, OpSent 1 0 true true 800);
   (ri0, OpSent 2 0 true true 1200); (ri0, OpSent 2 1 false true 300); (ri0, OpSent 2 2 true true 1200);
   (ri0, OpSent 2 3 true true 1200); (ri0, OpSent 2 4 false false 60); (ri0, OpSent 2 5 true true 1200);
   (ri0, OpAdv 20000000); (mkrin 22500000 20000000 10000000 20000000 1 0, OpAck 2 None [(5, 5); (3, 2)]);
   (ri0, OpDiscard 0); (ri0, OpAdv 50000000); (ri0, OpTick)].
