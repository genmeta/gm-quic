(* Round-trip and size lemmas for the wire primitives and the QUIC varint. *)
From Coq Require Import List ZArith Lia.
From GQ Require Import Lib.Wire Model.Varint.
Import ListNotations.
Local Open Scope Z_scope.

Lemma put_be_length n v : length (put_be n v) = n.
Proof. induction n as [|n IH]; cbn [put_be length]; [reflexivity|now rewrite IH]. Qed.

Lemma put_be_bytes n v : bytes_ok (put_be n v).
Proof.
  induction n as [|n IH]; cbn [put_be]; [constructor|].
  constructor; [|exact IH]. apply Z.mod_pos_bound. lia.
Qed.

Lemma put_be_1 v : 0 <= v < 256 -> put_be 1 v = [v].
Proof. intro H. cbn [put_be]. change (256 ^ Z.of_nat 0) with 1. rewrite Z.div_1_r, Z.mod_small by lia. reflexivity. Qed.

Lemma get_be_put_be n : forall acc v rest,
  get_be n acc (put_be n v ++ rest) = Some (acc * 256 ^ Z.of_nat n + v mod 256 ^ Z.of_nat n, rest).
Proof.
  induction n as [|n IH]; intros acc v rest.
  - cbn [put_be get_be app]. rewrite Z.pow_0_r, Z.mod_1_r. do 2 f_equal. lia.
  - cbn [put_be get_be app]. rewrite IH. do 2 f_equal.
    rewrite Nat2Z.inj_succ, Z.pow_succ_r by lia.
    assert (Hp : 0 < 256 ^ Z.of_nat n) by (apply Z.pow_pos_nonneg; lia).
    rewrite (Z.mul_comm 256 (256 ^ Z.of_nat n)).
    rewrite (Z.rem_mul_r v (256 ^ Z.of_nat n) 256) by lia.
    lia.
Qed.

Lemma get_be_put_be_exact n v rest : 0 <= v < 256 ^ Z.of_nat n ->
  get_be n 0 (put_be n v ++ rest) = Some (v, rest).
Proof. intro H. rewrite get_be_put_be, Z.mod_small by lia. reflexivity. Qed.

Lemma get_be_short n : forall acc bs, (length bs < n)%nat -> get_be n acc bs = None.
Proof.
  induction n as [|n IH]; intros acc bs H; [inversion H|].
  destruct bs as [|b r]; cbn [get_be]; [reflexivity|]. apply IH. cbn [length] in H. lia.
Qed.

Lemma get_be_some n : forall acc bs, (n <= length bs)%nat ->
  exists v, get_be n acc bs = Some (v, skipn n bs).
Proof.
  induction n as [|n IH]; intros acc bs H.
  - exists acc. reflexivity.
  - destruct bs as [|b r]; [cbn [length] in H; lia|]. cbn [get_be skipn]. apply IH. cbn [length] in H. lia.
Qed.

Lemma get_be_len n : forall acc bs v r, get_be n acc bs = Some (v, r) -> zlen r + Z.of_nat n = zlen bs.
Proof.
  induction n as [|n IH]; intros acc bs v r H.
  - cbn [get_be] in H. injection H as _ <-. lia.
  - destruct bs as [|b t]; cbn [get_be] in H; [discriminate|].
    apply IH in H. unfold zlen in *. cbn [length]. lia.
Qed.

Lemma varint_size_cases x :
  x < 2^6 /\ varint_size x = 1 \/ 2^6 <= x < 2^14 /\ varint_size x = 2 \/
  2^14 <= x < 2^30 /\ varint_size x = 4 \/ 2^30 <= x /\ varint_size x = 8.
Proof.
  unfold varint_size. destruct (Z.ltb_spec x (2^6)); [lia|]. destruct (Z.ltb_spec x (2^14)); [lia|].
  destruct (Z.ltb_spec x (2^30)); lia.
Qed.

Lemma varint_size_pos x : 1 <= varint_size x <= 8.
Proof. pose proof (varint_size_cases x). lia. Qed.

Lemma put_varint_length x : zlen (put_varint x) = varint_size x.
Proof.
  unfold put_varint, varint_size, zlen.
  destruct (x <? 2^6); [now rewrite put_be_length|].
  destruct (x <? 2^14); [now rewrite put_be_length|].
  destruct (x <? 2^30); now rewrite put_be_length.
Qed.

Lemma put_varint_bytes x : bytes_ok (put_varint x).
Proof. unfold put_varint. destruct (x <? 2^6), (x <? 2^14), (x <? 2^30); apply put_be_bytes. Qed.

Lemma put_varint_nonempty x : put_varint x <> [].
Proof.
  intro H. pose proof (put_varint_length x) as L. rewrite H in L. cbn in L.
  pose proof (varint_size_pos x). lia.
Qed.

Lemma put_varint_small x : 0 <= x < 64 -> put_varint x = [x].
Proof.
  intro H. unfold put_varint. destruct (Z.ltb_spec x (2^6)); [|lia]. apply put_be_1. lia.
Qed.

(* a varint of S k bytes: the two prefix bits p select the width, the 8k+6 bits below them are the value *)
Lemma be_varint_put_be k p x rest :
  0 <= p < 4 -> 0 <= x < 64 * 256 ^ Z.of_nat k ->
  (if p =? 0 then 1%nat else if p =? 1 then 2%nat else if p =? 2 then 4%nat else 8%nat) = S k ->
  be_varint (put_be (S k) (p * (64 * 256 ^ Z.of_nat k) + x) ++ rest) = Ok x rest.
Proof.
  intros Hp Hx Hw.
  assert (E : 2 ^ (8 * Z.of_nat (S k) - 2) = 64 * 256 ^ Z.of_nat k).
  { replace (8 * Z.of_nat (S k) - 2) with (6 + 8 * Z.of_nat k) by lia.
    rewrite Z.pow_add_r, Z.pow_mul_r by lia. reflexivity. }
  assert (E' : 256 ^ Z.of_nat (S k) = 256 * 256 ^ Z.of_nat k) by (rewrite Nat2Z.inj_succ; apply Z.pow_succ_r; lia).
  set (P := 256 ^ Z.of_nat k) in *. assert (HP : 0 < P) by (apply Z.pow_pos_nonneg; lia).
  set (v := p * (64 * P) + x).
  assert (Hq : v / P = p * 64 + x / P) by (unfold v; rewrite Z.mul_assoc, Z.div_add_l; lia).
  assert (Hx' : 0 <= x / P < 64) by (split; [apply Z.div_pos|apply Z.div_lt_upper_bound]; lia).
  assert (Hv : 0 <= v < 256 * P).
  { assert (0 <= p * (64 * P) <= 3 * (64 * P)) by (split; [apply Z.mul_nonneg_nonneg|apply Z.mul_le_mono_nonneg_r]; lia).
    unfold v. lia. }
  assert (Hb : (v / P) mod 256 / 64 = p).
  { rewrite Hq, Z.mod_small, Z.div_add_l, (Z.div_small (x / P)) by lia. lia. }
  unfold be_varint.
  change (put_be (S k) v ++ rest) with ((v / P) mod 256 :: (put_be k v ++ rest)) at 1. cbv beta iota zeta.
  rewrite Hb, Hw, get_be_put_be_exact by (rewrite E'; exact Hv).
  rewrite E. unfold v. rewrite Z.add_comm, Z.mod_add, Z.mod_small by lia. reflexivity.
Qed.

Lemma be_varint_put_varint x rest : varint_ok x -> be_varint (put_varint x ++ rest) = Ok x rest.
Proof.
  unfold varint_ok, put_varint. intros [H0 H1].
  destruct (Z.ltb_spec x (2^6)) as [C1|_]; [exact (be_varint_put_be 0 0 x rest ltac:(lia) (conj H0 C1) eq_refl)|].
  destruct (Z.ltb_spec x (2^14)) as [C2|_]; [exact (be_varint_put_be 1 1 x rest ltac:(lia) (conj H0 C2) eq_refl)|].
  destruct (Z.ltb_spec x (2^30)) as [C3|_]; [exact (be_varint_put_be 3 2 x rest ltac:(lia) (conj H0 C3) eq_refl)|].
  exact (be_varint_put_be 7 3 x rest ltac:(lia) (conj H0 H1) eq_refl).
Qed.
