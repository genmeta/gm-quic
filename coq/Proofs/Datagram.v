(* Lemmas about Model/Datagram.v.  First the single operations: sizes, the loader's choice as an equation, refusal, the
   frame round trip (the p_c19_* lemmas are cited by Properties/C19.v).  Then histories: what a stretch of operations
   does to one queue ([qstep]) and to the state ([acts]), with one lemma per operation of the outgoing side. *)
From Coq Require Import List NArith ZArith Bool Lia.
From GQ Require Import Lib.Base Lib.Slice Lib.VarintN Model.Datagram.
Import ListNotations.
Local Open Scope N_scope.

Lemma frame_bytes_length wl d :
  lenN (frame_bytes wl d) = frame_hdr_size wl (lenN d) + lenN d.
Proof.
  unfold frame_bytes, frame_hdr_size. destruct wl.
  - rewrite lenN_app, lenN_cons, varint_enc_length. lia.
  - rewrite lenN_app, lenN_cons, lenN_nil. lia.
Qed.

Lemma wire_bytes_length wl npad d :
  lenN (wire_bytes (LFrame wl npad d)) = npad + frame_hdr_size wl (lenN d) + lenN d.
Proof.
  cbn [wire_bytes]. rewrite lenN_app, lenN_repeat, frame_bytes_length. lia.
Qed.

(* `try_load_data_into` for a datagram d and `remaining` bytes of room, once the unreachable arms are gone *)
Lemma load_choice_eq remaining d : lenN d < VARINT_MAX ->
  load_choice remaining d =
    if remaining <=? lenN d then LNoRoom
    else if 1 + varint_size (lenN d) + lenN d <=? remaining then LFrame true 0 d
    else LFrame false (remaining - lenN d - 1) d.
Proof.
  intro Hlen. unfold load_choice, dump_admits, frame_hdr_size.
  pose proof (varint_size_bounds (lenN d)) as Hvs.
  destruct (N.leb_spec remaining (lenN d)) as [Hr | Hr].
  { now rewrite (proj2 (N.eqb_eq (remaining - lenN d) 0)) by lia. }
  rewrite (proj2 (N.eqb_neq (remaining - lenN d) 0)), (proj2 (N.leb_gt VARINT_MAX (lenN d))) by lia.
  destruct (N.leb_spec (1 + varint_size (lenN d) + lenN d) remaining) as [Hw | Hw].
  - (* dump's test and the room for the bytes follow from the choice *)
    rewrite (proj2 (N.leb_le (1 + varint_size (lenN d)) (remaining - lenN d))) by lia.
    rewrite (proj2 (N.leb_le (1 + varint_size (lenN d)) remaining)), orb_true_r by lia.
    now rewrite (proj2 (N.ltb_ge remaining (1 + varint_size (lenN d) + lenN d))) by lia.
  - (* after the padding exactly 1 + len bytes are left *)
    rewrite (proj2 (N.leb_gt (1 + varint_size (lenN d)) (remaining - lenN d))) by lia.
    replace (remaining - (remaining - lenN d - (1 + 0))) with (1 + lenN d) by lia.
    rewrite (proj2 (N.leb_le (1 + 0) (1 + lenN d))), orb_true_r, N.ltb_irrefl by lia.
    reflexivity.
Qed.

Lemma load_choice_cases remaining d : lenN d < VARINT_MAX ->
  load_choice remaining d = LNoRoom \/ exists wl npad, load_choice remaining d = LFrame wl npad d.
Proof.
  intro H. rewrite (load_choice_eq _ _ H). destruct (_ <=? _); [now left |]. destruct (_ <=? _); eauto.
Qed.

(* a length too large for a varint is counted as 8 bytes, which is what [varint_size] says from 2^30 on *)
Lemma send_len_size_eq len : send_len_size len = varint_size len.
Proof.
  unfold send_len_size, VARINT_MAX. destruct (N.leb_spec (2 ^ 62) len); [| reflexivity].
  destruct (varint_size_cases len) as [[? _] | [[? _] | [[? _] | [_ ->]]]]; [lia .. | reflexivity].
Qed.

Lemma p_c19_refuse : forall s d,
  wq s <> None ->
  (snd (send s d) = SendOk <-> 1 + varint_size (lenN d) + lenN d <= peer_max s) /\
  (snd (send s d) = SendOk -> wq (fst (send s d)) = option_map (fun q => q ++ [d]) (wq s)) /\
  (snd (send s d) <> SendOk -> fst (send s d) = s).
Proof.
  intros s d Hopen. unfold send. rewrite send_len_size_eq.
  pose proof (varint_size_bounds (lenN d)) as Hvs.
  destruct (N.eqb_spec (peer_max s) 0) as [E | E].
  - cbn [snd fst]. split; [split; [discriminate | lia] |]. split; [discriminate | reflexivity].
  - destruct (wq s) as [q |] eqn:Eq; [| contradiction].
    destruct (N.ltb_spec (peer_max s) (1 + varint_size (lenN d) + lenN d)) as [H | H]; cbn [snd fst].
    + split; [split; [discriminate | lia] |]. split; [discriminate | reflexivity].
    + split; [split; [lia | reflexivity] |]. split; [reflexivity | congruence].
Qed.

Lemma p_c19_wire_limit : forall s d wl,
  wq s <> None -> snd (send s d) = SendOk -> lenN (frame_bytes wl d) <= peer_max s.
Proof.
  intros s d wl Ho Hs. destruct (p_c19_refuse s d Ho) as [[Hiff _] _]. apply Hiff in Hs.
  rewrite frame_bytes_length. unfold frame_hdr_size. destruct wl; lia.
Qed.

Lemma parse_frames_pad : forall k fuel tail n0 acc,
  parse_frames (k + fuel) (repeat 0%Z k ++ tail) n0 acc = parse_frames fuel tail (n0 + N.of_nat k) acc.
Proof.
  induction k as [| k IH]; intros fuel tail n0 acc.
  - cbn [repeat app Nat.add]. f_equal. cbn. lia.
  - cbn [repeat app Nat.add parse_frames]. cbn [Z.eqb]. rewrite IH. f_equal. lia.
Qed.

Lemma parse_frame_bytes fuel wl d n0 :
  lenN d < VARINT_MAX -> (2 <= fuel)%nat ->
  parse_frames fuel (frame_bytes wl d) n0 [] = (true, n0, [PDatagram wl d]).
Proof.
  intros Hl Hf. destruct fuel as [| [| f]]; try lia. unfold frame_bytes. destruct wl.
  - cbn [app parse_frames]. cbn [Z.eqb Pos.eqb].
    rewrite (varint_rt (lenN d) d Hl).
    destruct (N.ltb_spec (lenN d) (lenN d)) as [H | _]; [lia |].
    rewrite (dropN_all (lenN d) d) by lia. rewrite (takeN_all (lenN d) d) by lia.
    destruct f; reflexivity.
  - cbn [app parse_frames]. cbn [Z.eqb Pos.eqb]. reflexivity.
Qed.

(* datagrams the writer accepted / datagrams put on the wire, read off the outputs *)
Definition accepted1 (o : dg_op) (out : dg_out) : list (list Z) :=
  match o, out with DSend d, OSend SendOk => [d] | _, _ => [] end.
Definition payloads (rs : list load_res) : list (list Z) :=
  flat_map (fun r => match r with LFrame _ _ d => [d] | _ => [] end) rs.
Definition wired1 (out : dg_out) : list (list Z) :=
  match out with
  | OLoad (LFrame _ _ d) _ => [d]
  | OLoadAll rs _ _ => payloads rs
  | _ => []
  end.

Fixpoint accepted (ops : list dg_op) (outs : list dg_out) : list (list Z) :=
  match ops, outs with
  | o :: ops', out :: outs' => accepted1 o out ++ accepted ops' outs'
  | _, _ => []
  end.
Fixpoint wired (outs : list dg_out) : list (list Z) :=
  match outs with out :: outs' => wired1 out ++ wired outs' | [] => [] end.

Definition all_short (q : list (list Z)) : Prop := Forall (fun d => lenN d < VARINT_MAX) q.

Definition op_short (o : dg_op) : Prop :=
  match o with DSend d => lenN d < VARINT_MAX | _ => True end.

Definition prefix {A} (l1 l2 : list A) : Prop := exists rest, l2 = l1 ++ rest.

Lemma accepted_short ops : Forall op_short ops -> forall outs, all_short (accepted ops outs).
Proof.
  induction 1 as [| o ops Ho _ IH]; intros [| out outs]; cbn [accepted]; try constructor.
  apply Forall_app. split; [| apply IH]. destruct o; try constructor. destruct out as [[] | | | | | ]; repeat constructor.
  exact Ho.
Qed.

(* how a queue may change ([None]: closed for good): [g] is taken from its front and [p] appended to it; once it is
   closed nothing more is taken, and what was taken up to then came from the front of what was there and was put *)
Definition qstep {X} (a b : option (list X)) (g p : list X) : Prop :=
  match a, b with
  | Some q, Some q' => g ++ q' = q ++ p
  | Some q, None => prefix g (q ++ p)
  | None, None => g = []
  | None, Some _ => False
  end.

Lemma qstep_idle {X} (a : option (list X)) : qstep a a [] [].
Proof. destruct a; [symmetry; apply app_nil_r | reflexivity]. Qed.
Lemma qstep_take {X} (g q : list X) : qstep (Some (g ++ q)) (Some q) g [].
Proof. symmetry. apply app_nil_r. Qed.
Lemma qstep_close {X} (a : option (list X)) p : qstep a None [] p.
Proof. destruct a as [q |]; [now exists (q ++ p) | reflexivity]. Qed.

Lemma qstep_trans {X} (a b c : option (list X)) g1 p1 g2 p2 :
  qstep a b g1 p1 -> qstep b c g2 p2 -> qstep a c (g1 ++ g2) (p1 ++ p2).
Proof.
  destruct a as [q |], b as [q1 |], c as [q2 |]; cbn [qstep]; try contradiction.
  - intros H1 H2. rewrite <- app_assoc, H2, !app_assoc, H1. reflexivity.
  - intros H1 [rest H2]. exists rest. rewrite !app_assoc, <- H1, <- !app_assoc, H2. reflexivity.
  - intros [rest H1] ->. exists (rest ++ p2). rewrite !app_assoc, H1, app_nil_r. reflexivity.
  - intros -> ->. reflexivity.
Qed.

Lemma qstep_forall {X} (P : X -> Prop) a b g p : qstep a b g p ->
  (forall q, a = Some q -> Forall P q) -> Forall P p -> forall q', b = Some q' -> Forall P q'.
Proof.
  intros S Ha Hp q' ->. destruct a as [q |]; [| contradiction]. cbn [qstep] in S.
  assert (F : Forall P (g ++ q')) by (rewrite S; apply Forall_app; auto).
  apply Forall_app in F. apply F.
Qed.

Lemma qstep_fifo {X} (q : list X) b g p : qstep (Some q) b g p ->
  prefix g (q ++ p) /\ forall q', b = Some q' -> g ++ q' = q ++ p.
Proof.
  destruct b as [q1 |]; cbn [qstep]; intro H.
  - split; [now exists q1 | now intros q' [= <-]].
  - split; [exact H | discriminate].
Qed.

Lemma load_all_q_spec : forall q rem, all_short q ->
  let '(rs, qf, last) := load_all_q q rem in payloads rs ++ qf = q.
Proof.
  induction q as [| d q' IH]; intros rem Hsh; cbn [load_all_q]; [reflexivity |].
  inversion Hsh as [| ? ? Hd Hq']; subst.
  destruct (load_choice_cases rem d Hd) as [-> | (wl & npad & ->)]; [reflexivity |].
  specialize (IH (rem - lenN (wire_bytes (LFrame wl npad d))) Hq').
  destruct (load_all_q q' (rem - lenN (wire_bytes (LFrame wl npad d)))) as [[rs qf] last].
  now rewrite <- IH.
Qed.

(* what going from s to s' does: the local maximum stays; the incoming queue gives gr and takes pr; the outgoing
   queue gives gw and takes pw, as long as every datagram in it and every one it takes is short (the loader takes a
   longer one off the queue and fails on it) *)
Definition acts (s s' : dg) (gr pr gw pw : list (list Z)) : Prop :=
  local_max s' = local_max s /\ qstep (rq s) (rq s') gr pr /\
  ((forall q, wq s = Some q -> all_short q) -> all_short pw -> qstep (wq s) (wq s') gw pw).

Lemma acts_idle s : acts s s [] [] [] [].
Proof. repeat split; intros; apply qstep_idle. Qed.

Lemma acts_trans s s1 s2 gr1 pr1 gw1 pw1 gr2 pr2 gw2 pw2 :
  acts s s1 gr1 pr1 gw1 pw1 -> acts s1 s2 gr2 pr2 gw2 pw2 ->
  acts s s2 (gr1 ++ gr2) (pr1 ++ pr2) (gw1 ++ gw2) (pw1 ++ pw2).
Proof.
  intros (L1 & R1 & W1) (L2 & R2 & W2). split; [congruence |]. split; [exact (qstep_trans _ _ _ _ _ _ _ R1 R2) |].
  intros H Hp. apply Forall_app in Hp as [Hp1 Hp2]. specialize (W1 H Hp1).
  exact (qstep_trans _ _ _ _ _ _ _ W1 (W2 (qstep_forall _ _ _ _ _ W1 H Hp1) Hp2)).
Qed.

Lemma send_acts s d : acts s (fst (send s d)) [] [] [] (accepted1 (DSend d) (OSend (snd (send s d)))).
Proof.
  unfold send. destruct (peer_max s =? 0); [apply acts_idle |]. destruct (wq s) as [q |] eqn:Eq; [| apply acts_idle].
  destruct (peer_max s <? _); [apply acts_idle |]. repeat split; [apply qstep_idle |]. intros _ _. cbn [wq]. rewrite Eq. reflexivity.
Qed.

Lemma load_acts s rem : acts s (fst (load s rem)) [] [] (payloads [snd (load s rem)]) [].
Proof.
  unfold load. destruct (wq s) as [[| d q0] |] eqn:Eq; try apply acts_idle.
  split; [destruct (load_choice rem d); reflexivity |]. split; [destruct (load_choice rem d); apply qstep_idle |].
  intros Hq _. rewrite Eq in *.
  pose proof (Hq _ eq_refl) as Hsh. inversion Hsh as [| ? ? Hd _]; subst.
  destruct (load_choice_cases rem d Hd) as [-> | (wl & npad & ->)]; cbn [fst snd wq]; rewrite ?Eq;
    [apply qstep_idle | exact (qstep_take [d] q0)].
Qed.

Lemma load_all_acts s rem : acts s (fst (fst (load_all s rem))) [] [] (payloads (snd (fst (load_all s rem)))) [].
Proof.
  unfold load_all. destruct (wq s) as [q |] eqn:Eq; [| apply acts_idle].
  pose proof (load_all_q_spec q rem) as Hs. destruct (load_all_q q rem) as [[rs qf] last].
  repeat split; [apply qstep_idle |]. intros Hq _. cbn [fst snd wq]. rewrite Eq in *. rewrite <- (Hs (Hq _ eq_refl)). apply qstep_take.
Qed.
