(* C18 over Model/ParamsState.v.  What a parsed map satisfies ([map_valid]) is an instance of [parse_loop_inv].  Once
   the peer's connection id is known, [authenticate] is the boolean [verdict] ([after_auth_eq]), so both arrival orders
   evaluate to [accepts] ([two_orders]), which [accepts_accept] reads as the [accept] of the statements. *)
From Coq Require Import List ZArith Bool Lia.
From GQ Require Import Lib.Wire Model.Varint Model.Frames Model.Params Model.ParamsState Proofs.FramesTotal Proofs.Packets.
Import ListNotations.
Local Open Scope Z_scope.

Definition entry_valid (r : role) (id : Z) (v : pvalue) : Prop :=
  exists row, param_row_of id = Some row /\ belong_to id r = true /\ in_bound row v = true /\
              p_type row = value_type v.

Definition map_valid (r : role) (m : pmap_t) : Prop :=
  forall id v, pm_get m id = Some v -> entry_valid r id v.

Lemma whole_some {A} (x : res A) v : whole x = Some v -> x = Ok v [].
Proof. unfold whole. destruct x as [w rest| | |]; try discriminate. destruct rest; [|discriminate]. now intros [= ->]. Qed.

Lemma whole_yields {A} (P : A -> Prop) (p : parser A) data v : yields P p -> whole (p data) = Some v -> P v.
Proof. intros Y H. exact (proj2 Y _ _ _ (whole_some _ _ H)). Qed.

Lemma be_param_value_type t data v : be_param_value t data = Some v -> value_type v = t.
Proof.
  (* four of the types are read by a parser written with the combinators *)
  destruct t; cbn [be_param_value]; intro H;
    try (refine (whole_yields (fun v => value_type v = _) _ _ _ _ H); unfold pmap, be_pref_addr; auto 8 with parse).
  - destruct data; [now injection H as <-|discriminate].
  - now injection H as <-.
  - destruct (MAX_CID_SIZE <? zlen data); [discriminate|]. now injection H as <-.
Qed.

Lemma map_valid_set r m id v : map_valid r m -> entry_valid r id v -> map_valid r (pm_set m id v).
Proof.
  intros Hm He id' v' H. rewrite pm_get_set in H.
  destruct (Z.eqb_spec id id') as [<-|NE]; [injection H as <-; exact He|now apply Hm].
Qed.

Lemma parse_loop_valid r fuel m buf m' : map_valid r m -> parse_loop fuel r m buf = PaOk m' -> map_valid r m'.
Proof.
  intros Hm E. pose proof (fun Hset => parse_loop_inv (map_valid r) r Hset fuel m buf Hm) as H.
  rewrite E in H. apply H.
  intros m0 id row data v Hm0 Er Eb Ev Ei. apply map_valid_set; [exact Hm0|].
  exists row. rewrite (be_param_value_type _ _ _ Ev). auto.
Qed.

Lemma map_valid_nil r : map_valid r [].
Proof. intros id v H. discriminate. Qed.

Definition accept (r : role) (origin blob cid : list Z) : Prop :=
  exists m, parse_params (peer_of r) blob = PaOk m /\
            get_cid m PID_INITIAL_SOURCE_CONNECTION_ID = Some cid /\
            (r = Client -> get_cid m PID_ORIGINAL_DESTINATION_CONNECTION_ID = Some origin).

Lemma cid_eqb_spec a b : cid_eqb a b = true <-> a = b.
Proof. unfold cid_eqb. destruct (list_eq_dec Z.eq_dec a b); split; congruence. Qed.

Definition outcome (s : pstate) : bool * bool := (ps_ready s, ps_failed s).

Definition verdict (r : role) (origin : list Z) (m : pmap_t) (cid : list Z) : bool :=
  match get_cid m PID_INITIAL_SOURCE_CONNECTION_ID with
  | Some c => cid_eqb c cid &&
              match r with
              | Server => true
              | Client => match get_cid m PID_ORIGINAL_DESTINATION_CONNECTION_ID with
                          | Some o => cid_eqb o origin | None => false end
              end
  | None => false
  end.

Lemma authenticate_verdict s m cid : ps_scid s = Some cid ->
  authenticate s m = Some (verdict (ps_role s) (ps_origin s) m cid).
Proof.
  intro H. unfold authenticate, verdict. rewrite H.
  destruct (get_cid m PID_INITIAL_SOURCE_CONNECTION_ID) as [c|]; [|reflexivity].
  destruct (cid_eqb c cid); cbn [negb andb]; [|reflexivity].
  destruct (ps_role s); [|reflexivity].
  destruct (get_cid m PID_ORIGINAL_DESTINATION_CONNECTION_ID); reflexivity.
Qed.

Lemma after_auth_eq s m : after_auth s m =
  match ps_scid s with
  | None => s
  | Some cid => let v := verdict (ps_role s) (ps_origin s) m cid in
                mk_ps (ps_role s) (ps_local_idle s) (ps_origin s) (ps_remote s) (ps_scid s) v (negb v)
  end.
Proof.
  unfold after_auth. destruct (ps_scid s) as [cid|] eqn:E; [|unfold authenticate; now rewrite E].
  rewrite (authenticate_verdict s m cid E). now destruct (verdict _ _ _ _).
Qed.

Definition accepts (r : role) (origin blob cid : list Z) : bool :=
  match parse_params (peer_of r) blob with PaOk m => verdict r origin m cid | _ => false end.

Lemma two_orders r idle origin blob cid :
  let s0 := ps_init r idle origin in
  outcome (ps_run s0 [PsParams blob; PsScid cid]) = (accepts r origin blob cid, negb (accepts r origin blob cid)) /\
  outcome (ps_run s0 [PsScid cid; PsParams blob]) = (accepts r origin blob cid, negb (accepts r origin blob cid)).
Proof.
  cbv zeta. unfold accepts, ps_run, ps_init. cbn [fold_left].
  destruct (parse_params (peer_of r) blob) as [m| |st] eqn:Ep.
  (* whatever the parser said: the first step on the initial state, then the second on its result *)
  all: unfold ps_step at 2 4; cbn [ps_failed ps_role ps_local_idle ps_origin ps_remote ps_scid ps_ready];
    rewrite ?Ep, ?after_auth_eq.
  all: unfold ps_step; cbn [ps_failed ps_role ps_local_idle ps_origin ps_remote ps_scid ps_ready];
    rewrite ?Ep, ?after_auth_eq.
  all: split; reflexivity.
Qed.

Lemma verdict_accept r origin m cid :
  verdict r origin m cid = true <->
  (get_cid m PID_INITIAL_SOURCE_CONNECTION_ID = Some cid /\
   (r = Client -> get_cid m PID_ORIGINAL_DESTINATION_CONNECTION_ID = Some origin)).
Proof.
  unfold verdict. destruct (get_cid m PID_INITIAL_SOURCE_CONNECTION_ID) as [c|].
  - rewrite andb_true_iff, cid_eqb_spec. destruct r.
    + destruct (get_cid m PID_ORIGINAL_DESTINATION_CONNECTION_ID) as [o|].
      * rewrite cid_eqb_spec. split; [intros [-> ->]; auto|intros [[= ->] H2]; now injection (H2 eq_refl) as ->].
      * split; [intros [_ H]; discriminate|intros [_ H2]; discriminate (H2 eq_refl)].
    + split; [intros [-> _]; split; [reflexivity|discriminate]|intros [[= ->] _]; auto].
  - split; [discriminate|intros [H _]; discriminate].
Qed.

Lemma accepts_accept r origin blob cid : accepts r origin blob cid = true <-> accept r origin blob cid.
Proof.
  unfold accepts, accept. destruct (parse_params (peer_of r) blob) as [m| |st].
  - rewrite verdict_accept. split; [intro H; now exists m|intros (m' & [= <-] & H); exact H].
  - split; [discriminate|intros (m' & H & _); discriminate].
  - split; [discriminate|intros (m' & H & _); discriminate].
Qed.

Lemma p_c18_idle s m rem v : ps_ready s = true -> ps_remote s = Some m ->
  num_of (pm_get_d m PID_MAX_IDLE_TIMEOUT) = Some rem -> negotiated_idle s = Some v ->
  (ps_local_idle s = 0 /\ rem = 0 -> v = -1) /\
  (ps_local_idle s = 0 /\ 0 < rem -> v = rem) /\
  (0 < ps_local_idle s /\ rem = 0 -> v = ps_local_idle s) /\
  (0 < ps_local_idle s /\ 0 < rem -> v = Z.min (ps_local_idle s) rem).
Proof.
  intros Hr Hm Hn. unfold negotiated_idle. rewrite Hr, Hm, Hn. cbn [negb].
  intro H. injection H as <-.
  destruct (Z.eqb_spec (ps_local_idle s) 0) as [El|El], (Z.eqb_spec rem 0) as [Er|Er]; cbn [andb]; repeat split; intros; lia.
Qed.

(* the `unreachable!` arm cannot be hit for maps produced by the parser: the eight ids are VarInt with a default *)
Lemma zero_rtt_ids_varint : forall id, In id zero_rtt_ids ->
  exists row d, param_row_of id = Some row /\ p_type row = VTVarInt /\ p_default row = Some d.
Proof.
  intros id Hin. unfold zero_rtt_ids in Hin.
  repeat (destruct Hin as [<-|Hin]; [eexists; eexists; vm_compute; repeat split; reflexivity|]). destruct Hin.
Qed.

Lemma num_of_valid r m id : map_valid r m -> In id zero_rtt_ids -> exists x, num_of (pm_get_d m id) = Some x.
Proof.
  intros Hm Hin. destruct (zero_rtt_ids_varint _ Hin) as (row & d & Hr & Ht & Hd).
  unfold pm_get_d. destruct (pm_get m id) as [v|] eqn:Eg.
  - destruct (Hm _ _ Eg) as (row' & Hr' & _ & _ & Hty). rewrite Hr in Hr'. injection Hr' as <-.
    rewrite Ht in Hty. destruct v; try discriminate. eexists; reflexivity.
  - unfold param_default. rewrite Hr, Hd, Ht. eexists; reflexivity.
Qed.
