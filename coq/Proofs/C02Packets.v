(* C02 — composition statements over the abstract packet layer of Model/C02Packets.v under the
   ideal-AEAD hypothesis of DESIGN §7 (a Section hypothesis, never an axiom). *)
From Coq Require Import List NArith.
From GQ Require Import Model.C02Packets.
Import ListNotations.

Section IdealAEAD.
  Variables pkt frame : Type.
  Variable open : pkt -> option (N * list frame).
  (* everything the peer ever put into packets under these keys: (packet number, frames) *)
  Variable sent : list (N * list frame).
  (* ideal AEAD (integrity of ciphertexts): a datagram that the adversary dropped, delayed, reordered,
     duplicated, truncated or bit-flipped either fails to open or is, as far as the receiver can
     tell, one of the packets the peer sealed *)
  Hypothesis ideal_aead : forall p x, open p = Some x -> In x sent.

  Lemma recv_all_spec : forall ps st,
    let out := recv_all pkt frame open st ps in
    incl out sent /\ NoDup (map fst out) /\ (forall x, In x out -> ~ In (fst x) st).
  Proof.
    induction ps as [|p r IH]; intro st; cbn [recv_all].
    - cbn. split; [intros x []|]. split; [constructor|intros x []].
    - unfold recv_pkt. destruct (open p) as [[pn fs]|] eqn:O; [|apply IH].
      destruct (seen st pn) eqn:S; [apply IH|].
      destruct (IH (pn :: st)) as (I & N & F). cbn zeta in *.
      split; [intros x [<-|Hx]; [eapply ideal_aead; eauto|apply I; exact Hx]|].
      split.
      + cbn [map fst]. constructor; [|exact N].
        intro Hin. apply in_map_iff in Hin. destruct Hin as (x & Hx1 & Hx2).
        apply (F x Hx2). left. symmetry; exact Hx1.
      + intros x [<-|Hx]; cbn [fst].
        * intro Hin. unfold seen in S. assert (existsb (N.eqb pn) st = true); [|congruence].
          apply existsb_exists. exists pn. split; [exact Hin|apply N.eqb_refl].
        * intro Hin. apply (F x Hx). right; exact Hin.
  Qed.

  Lemma p_c02_no_replay : forall delivered,
    NoDup (map fst (processed pkt frame open delivered)) /\ incl (processed pkt frame open delivered) sent.
  Proof.
    intro delivered. destruct (recv_all_spec delivered []) as (I & N & _). split; assumption.
  Qed.

  (* no sealed packet's frames are dispatched twice: the processed list has no duplicates at all.  C07's
     guarantee (the peer never reuses a packet number), the hypothesis, is not needed for it: entries with
     distinct packet numbers are distinct *)
  Lemma p_c02_at_most_once : forall delivered,
    NoDup (map fst sent) -> NoDup (processed pkt frame open delivered).
  Proof.
    intros delivered _. destruct (p_c02_no_replay delivered) as [N _].
    eapply NoDup_map_inv; exact N.
  Qed.
End IdealAEAD.
