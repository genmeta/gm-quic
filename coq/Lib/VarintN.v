(* QUIC variable-length integers (RFC 9000 §16) as far as the DATAGRAM code needs them:
   `VarInt::encoding_size` (1/2/4/8 bytes by the thresholds 2^6, 2^14, 2^30, 2^62), the big-endian
   encoder with the 2-bit length prefix, the decoder, their basic laws and the round trip.  qbase/src/varint.rs. *)
From Coq Require Import List NArith ZArith Lia.
From GQ Require Import Lib.Base Lib.Slice.
Import ListNotations.
Local Open Scope N_scope.

Definition VARINT_MAX : N := 2 ^ 62.

Definition varint_size (v : N) : N :=
  if v <? 2 ^ 6 then 1 else if v <? 2 ^ 14 then 2 else if v <? 2 ^ 30 then 4 else 8.

Fixpoint be_bytes (n : nat) (v : N) : list Z :=
  match n with
  | O => []
  | S k => Z.of_N ((v / 256 ^ N.of_nat k) mod 256) :: be_bytes k v
  end.

Definition varint_enc (v : N) : list Z :=
  if v <? 2 ^ 6 then be_bytes 1 v
  else if v <? 2 ^ 14 then be_bytes 2 (v + 2 ^ 14)
  else if v <? 2 ^ 30 then be_bytes 4 (v + 2 ^ 31)
  else be_bytes 8 (v + 2 ^ 63 + 2 ^ 62).

Definition be_value (acc : N) (bs : list Z) : N :=
  fold_left (fun a b => a * 256 + Z.to_N b) bs acc.

(* number of bytes that follow the first one, from its two top bits *)
Definition varint_follow (b0 : N) : N :=
  match b0 / 64 with 0 => 0 | 1 => 1 | 2 => 3 | _ => 7 end.

Definition varint_dec (bs : list Z) : option (N * list Z) :=
  match bs with
  | [] => None
  | b0 :: tl =>
      let k := varint_follow (Z.to_N b0) in
      if lenN tl <? k then None
      else Some (be_value (Z.to_N b0 mod 64) (takeN k tl), dropN k tl)
  end.

Lemma varint_size_cases v :
  (v < 2 ^ 6 /\ varint_size v = 1) \/ (2 ^ 6 <= v < 2 ^ 14 /\ varint_size v = 2) \/
  (2 ^ 14 <= v < 2 ^ 30 /\ varint_size v = 4) \/ (2 ^ 30 <= v /\ varint_size v = 8).
Proof.
  unfold varint_size.
  destruct (N.ltb_spec v (2 ^ 6)); [left; split; [assumption | reflexivity] |].
  destruct (N.ltb_spec v (2 ^ 14)); [right; left; repeat split; assumption |].
  destruct (N.ltb_spec v (2 ^ 30)); [right; right; left; repeat split; assumption |].
  right; right; right; split; [assumption | reflexivity].
Qed.

Lemma varint_size_bounds v : 1 <= varint_size v <= 8.
Proof. destruct (varint_size_cases v) as [[_ H] | [[_ H] | [[_ H] | [_ H]]]]; rewrite H; lia. Qed.

Lemma lenN_be_bytes n x : lenN (be_bytes n x) = N.of_nat n.
Proof. unfold lenN. f_equal. induction n; cbn [be_bytes length]; congruence. Qed.

Lemma varint_enc_length v : lenN (varint_enc v) = varint_size v.
Proof.
  unfold varint_enc, varint_size.
  destruct (v <? 2 ^ 6); [apply lenN_be_bytes |].
  destruct (v <? 2 ^ 14); [apply lenN_be_bytes |].
  destruct (v <? 2 ^ 30); apply lenN_be_bytes.
Qed.

Lemma be_value_be_bytes n : forall acc x,
  be_value acc (be_bytes n x) = acc * 256 ^ N.of_nat n + x mod 256 ^ N.of_nat n.
Proof.
  induction n as [| k IH]; intros acc x.
  - unfold be_value. cbn [be_bytes fold_left N.of_nat]. rewrite N.pow_0_r, N.mod_1_r. lia.
  - cbn [be_bytes]. unfold be_value in *. cbn [fold_left]. rewrite N2Z.id, IH.
    rewrite Nnat.Nat2N.inj_succ, N.pow_succ_r', (N.mul_comm 256).
    assert (Hp : 256 ^ N.of_nat k <> 0) by (apply N.pow_nonzero; lia).
    rewrite (N.mod_mul_r x (256 ^ N.of_nat k) 256) by lia. lia.
Qed.

(* a varint of S k bytes: the two prefix bits p select the width, the 8k+6 bits below them are the value *)
Lemma dec_be k p v rest :
  p < 4 -> v < 64 * 256 ^ N.of_nat k -> varint_follow (p * 64) = N.of_nat k ->
  varint_dec (be_bytes (S k) (p * (64 * 256 ^ N.of_nat k) + v) ++ rest) = Some (v, rest).
Proof.
  intros Hp Hv Hf. set (P := 256 ^ N.of_nat k) in *.
  assert (HP : P <> 0) by (apply N.pow_nonzero; lia).
  set (x := p * (64 * P) + v).
  assert (Hq : x / P = p * 64 + v / P) by (unfold x; rewrite N.mul_assoc, N.div_add_l by exact HP; reflexivity).
  assert (Hv' : v / P < 64) by (apply N.div_lt_upper_bound; lia).
  assert (Hm : x mod P = v mod P) by (unfold x; rewrite N.mul_assoc, N.add_comm; apply N.mod_add, HP).
  cbn [be_bytes app]. fold P. fold x. unfold varint_dec. rewrite N2Z.id, Hq, (N.mod_small _ 256) by lia.
  replace (varint_follow (p * 64 + v / P)) with (N.of_nat k)
    by (rewrite <- Hf; unfold varint_follow; now rewrite N.div_add_l, N.div_mul, (N.div_small _ 64), N.add_0_r).
  rewrite lenN_app, lenN_be_bytes. destruct (N.ltb_spec (N.of_nat k + lenN rest) (N.of_nat k)); [lia|].
  rewrite takeN_app_exact, dropN_app_exact, be_value_be_bytes by apply lenN_be_bytes. fold P.
  rewrite (N.add_comm (p * 64)), N.mod_add, (N.mod_small _ 64), Hm by lia.
  do 2 f_equal. rewrite (N.div_mod' v P) at 3. lia.
Qed.

Lemma varint_rt v rest : v < VARINT_MAX -> varint_dec (varint_enc v ++ rest) = Some (v, rest).
Proof.
  unfold VARINT_MAX, varint_enc. intro H.
  destruct (N.ltb_spec v (2 ^ 6)) as [C1|_]; [exact (dec_be 0 0 v rest eq_refl C1 eq_refl)|].
  destruct (N.ltb_spec v (2 ^ 14)) as [C2|_].
  { rewrite N.add_comm. exact (dec_be 1 1 v rest eq_refl C2 eq_refl). }
  destruct (N.ltb_spec v (2 ^ 30)) as [C3|_].
  { rewrite N.add_comm. exact (dec_be 3 2 v rest eq_refl C3 eq_refl). }
  rewrite <- N.add_assoc, N.add_comm. exact (dec_be 7 3 v rest eq_refl H eq_refl).
Qed.
