(* Generic small-step systems, reachability, the invariant rule, and a reusable formulation of
   the waiter / notifier discipline ("check; register; sleep" against "set; notify" / "close").

   Granularity: one label = one lock-protected call (or one atomic operation for the
   AtomicUsize-based protocols).  `reach` quantifies over every finite sequence of labels, i.e.
   over every interleaving of any number of waiter / notifier steps.

   Two layers:
   * `sys`, `reach`, `invariant_rule`                 -- any protocol, bespoke invariants;
   * `proto`, `lift`, `discipline`, `no_lost_wakeup`  -- protocols whose every method is ONE
     lock-protected call on ONE object: the object model returns the list of waiter ids whose
     `Waker` it invoked; `lift` adds the ghost task table (sleeping / wake pending / cumulative
     wake count / what the task waits for) and the theorem reduces "no lost wake-up" to three
     local, one-step obligations on the object model; `waiters_parked` and `single_waiter`
     are its forms for objects that keep a list of Wakers and for objects with one slot, and
     give `Observes` from the same look at the polls that park. *)
From Coq Require Import List ZArith Lia.
Import ListNotations.

Record sys := { St : Type; Lbl : Type; init : St; step : St -> Lbl -> option St }.

Inductive reach (S : sys) : St S -> Prop :=
| r0 : reach S (init S)
| rS s l s' : reach S s -> step S s l = Some s' -> reach S s'.

Theorem invariant_rule (S : sys) (P : St S -> Prop) :
  P (init S) ->
  (forall s l s', reach S s -> P s -> step S s l = Some s' -> P s') ->
  forall s, reach S s -> P s.
Proof.
  intros H0 HS s Hr. induction Hr; [exact H0|]. eapply HS; eauto.
Qed.

Fixpoint run (S : sys) (s : St S) (tr : list (Lbl S)) : option (St S) :=
  match tr with
  | [] => Some s
  | l :: rest => match step S s l with Some s' => run S s' rest | None => None end
  end.

Lemma run_reach (S : sys) tr : forall s s', reach S s -> run S s tr = Some s' -> reach S s'.
Proof.
  induction tr as [|l tr IH]; intros s s' Hr H; cbn in H.
  - inversion H; subst; exact Hr.
  - destruct (step S s l) eqn:E; [|discriminate]. eapply IH; [|exact H]. eapply rS; eauto.
Qed.

Lemma run_app (S : sys) tr1 : forall s s1 tr2, run S s tr1 = Some s1 -> run S s (tr1 ++ tr2) = run S s1 tr2.
Proof.
  induction tr1 as [|l tr IH]; intros s s1 tr2 H; cbn in *.
  - inversion H; reflexivity.
  - destruct (step S s l); [|discriminate]. eapply IH; exact H.
Qed.

Lemma reach_run (S : sys) s : reach S s -> exists tr, run S (init S) tr = Some s.
Proof.
  induction 1 as [|s l s' Hr [tr IH] Hs].
  - exists []; reflexivity.
  - exists (tr ++ [l]). erewrite run_app by exact IH. cbn. rewrite Hs. reflexivity.
Qed.

Corollary run_init_reach (S : sys) tr s : run S (init S) tr = Some s -> reach S s.
Proof. apply run_reach, r0. Qed.

Definition wid := nat.

(* t_sleep : the task's last poll returned Pending and it has neither been polled again nor
             dropped since (it relies on its Waker being invoked);
   t_pend  : its Waker has been invoked since that poll (the executor will poll it again);
   t_cnt   : cumulative number of invocations of its Waker (what the counting waker of the
             harness observes);
   t_arg   : what it waits for (argument of the last poll). *)
Record task (A : Type) := mkTask { t_sleep : bool; t_pend : bool; t_cnt : N; t_arg : A }.

Arguments mkTask {A}.
Arguments t_sleep {A}.
Arguments t_pend {A}.
Arguments t_cnt {A}.
Arguments t_arg {A}.

Definition tasks (A : Type) := wid -> task A.

Definition upd {A} (t : tasks A) (w : wid) (v : task A) : tasks A :=
  fun x => if Nat.eqb x w then v else t x.

Definition wake1 {A} (t : tasks A) (w : wid) : tasks A :=
  upd t w (mkTask (t_sleep (t w)) true (t_cnt (t w) + 1) (t_arg (t w))).

Definition wake_all {A} (wk : list wid) (t : tasks A) : tasks A := fold_left wake1 wk t.

Definition set_polled {A} (t : tasks A) (w : wid) (pending : bool) (a : A) : tasks A :=
  upd t w (mkTask pending false (t_cnt (t w)) a).

Definition set_dropped {A} (t : tasks A) (w : wid) : tasks A :=
  upd t w (mkTask false false (t_cnt (t w)) (t_arg (t w))).

Lemma upd_same {A} (t : tasks A) w v : upd t w v w = v.
Proof. unfold upd. rewrite Nat.eqb_refl. reflexivity. Qed.

Lemma upd_other {A} (t : tasks A) w v x : x <> w -> upd t w v x = t x.
Proof. intro H. unfold upd. destruct (Nat.eqb_spec x w); [contradiction|reflexivity]. Qed.

Lemma wake_all_rel {A} (R : task A -> task A -> Prop) :
  (forall a, R a a) -> (forall a b c, R a b -> R b c -> R a c) ->
  (forall a, R a (mkTask (t_sleep a) true (t_cnt a + 1) (t_arg a))) ->
  forall wk (t : tasks A) w, R (t w) (wake_all wk t w).
Proof.
  intros Hr Ht Hw. induction wk as [|x wk IH]; intros t w; cbn; [apply Hr|].
  eapply Ht; [|apply IH]. unfold wake1.
  destruct (Nat.eq_dec w x) as [->|N]; [rewrite upd_same; apply Hw|rewrite upd_other by exact N; apply Hr].
Qed.

Lemma wake_all_sleep {A} wk (t : tasks A) w : t_sleep (wake_all wk t w) = t_sleep (t w).
Proof. apply (wake_all_rel (fun a b => t_sleep b = t_sleep a)); intros; cbn; congruence. Qed.

Lemma wake_all_arg {A} wk (t : tasks A) w : t_arg (wake_all wk t w) = t_arg (t w).
Proof. apply (wake_all_rel (fun a b => t_arg b = t_arg a)); intros; cbn; congruence. Qed.

Lemma wake_all_pend_mono {A} wk (t : tasks A) w : t_pend (t w) = true -> t_pend (wake_all wk t w) = true.
Proof. apply (wake_all_rel (fun a b => t_pend a = true -> t_pend b = true)); auto. Qed.

Lemma wake_all_cnt_mono {A} wk (t : tasks A) w : (t_cnt (t w) <= t_cnt (wake_all wk t w))%N.
Proof. apply (wake_all_rel (fun a b => (t_cnt a <= t_cnt b)%N)); intros; cbn; lia. Qed.

Lemma wake_all_notin {A} wk : forall (t : tasks A) w, ~ In w wk -> wake_all wk t w = t w.
Proof.
  induction wk as [|x wk IH]; intros t w Hn; cbn; [reflexivity|].
  unfold wake_all in IH. rewrite IH by (intro; apply Hn; right; assumption).
  unfold wake1. apply upd_other. intro; apply Hn; left; congruence.
Qed.

Lemma wake_all_in {A} wk : forall (t : tasks A) w, In w wk -> t_pend (wake_all wk t w) = true.
Proof.
  induction wk as [|x wk IH]; intros t w Hi; cbn; [destruct Hi|].
  destruct (Nat.eq_dec x w) as [->|N].
  - apply wake_all_pend_mono. unfold wake1. rewrite upd_same. reflexivity.
  - destruct Hi as [E|Hi]; [contradiction|]. unfold wake_all in IH. apply IH. exact Hi.
Qed.

Lemma wake_all_unwoken {A} wk (t : tasks A) w :
  t_pend (wake_all wk t w) = false -> ~ In w wk /\ wake_all wk t w = t w.
Proof.
  intro H. assert (N : ~ In w wk) by (intro Hi; rewrite (wake_all_in _ _ _ Hi) in H; discriminate).
  split; [exact N|apply wake_all_notin, N].
Qed.

Lemma wake_all_cnt_in {A} wk : forall (t : tasks A) w, In w wk -> (t_cnt (t w) < t_cnt (wake_all wk t w))%N.
Proof.
  induction wk as [|x wk IH]; intros t w Hi; cbn; [destruct Hi|].
  destruct (Nat.eq_dec x w) as [->|N].
  - eapply N.lt_le_trans; [|apply wake_all_cnt_mono]. unfold wake1. rewrite upd_same. cbn. lia.
  - destruct Hi as [E|Hi]; [contradiction|]. unfold wake_all in IH.
    eapply N.le_lt_trans; [|apply IH; exact Hi]. unfold wake1. rewrite upd_other by congruence. lia.
Qed.

Inductive pres := Pending | Ready (code : Z).

Definition is_pending (r : pres) : bool := match r with Pending => true | Ready _ => false end.
Definition pres_code (r : pres) : Z := match r with Pending => 0%Z | Ready c => c end.

(* `poll o w a`  : the waiter-side method called by task `w` with a `Context` carrying w's
                   Waker; `oper o op` : any other method (set+notify, close, ...).
   Both return the new object, the waiter ids whose Waker was invoked inside the call (in
   order, with multiplicity), and a result.  `None` = the call is outside the caller contract
   of the Rust code (it panics: `unreachable!`, `assert!`, documented single-consumer rule);
   such labels are not enabled. *)
Record proto := {
  Obj : Type; PArg : Type; Op : Type;
  obj0 : Obj; arg0 : PArg;
  poll : Obj -> wid -> PArg -> option (Obj * list wid * pres);
  oper : Obj -> Op -> option (Obj * list wid * Z)
}.

Inductive lbl (P : proto) :=
| LPoll (w : wid) (a : PArg P)
| LOp (o : Op P)
| LDrop (w : wid).                 (* task w drops its future (cancellation) *)
Arguments LPoll {P} w a.
Arguments LOp {P} o.
Arguments LDrop {P} w.

Definition lstate (P : proto) : Type := Obj P * tasks (PArg P).

(* second component = result code printed by the correspondence stream *)
Definition lexec (P : proto) (s : lstate P) (l : lbl P) : option (lstate P * Z) :=
  let '(o, t) := s in
  match l with
  | LPoll w a =>
      match poll P o w a with
      | Some (o', wk, r) => Some ((o', wake_all wk (set_polled t w (is_pending r) a)), pres_code r)
      | None => None
      end
  | LOp op =>
      match oper P o op with
      | Some (o', wk, r) => Some ((o', wake_all wk t), r)
      | None => None
      end
  | LDrop w => Some ((o, set_dropped t w), 0%Z)
  end.

Definition lstep (P : proto) (s : lstate P) (l : lbl P) : option (lstate P) :=
  match lexec P s l with Some (s', _) => Some s' | None => None end.

Definition linit (P : proto) : lstate P := (obj0 P, fun _ => mkTask false false 0%N (arg0 P)).

Definition lift (P : proto) : sys :=
  {| St := lstate P; Lbl := lbl P; init := linit P; step := lstep P |}.

Lemma lstep_cases (P : proto) o t l o' t' : lstep P (o, t) l = Some (o', t') ->
  match l with
  | LPoll w a => exists wk r, poll P o w a = Some (o', wk, r) /\ t' = wake_all wk (set_polled t w (is_pending r) a)
  | LOp op => exists wk r, oper P o op = Some (o', wk, r) /\ t' = wake_all wk t
  | LDrop w => o' = o /\ t' = set_dropped t w
  end.
Proof.
  unfold lstep, lexec. destruct l as [w a|op|w].
  - destruct (poll P o w a) as [[[o1 wk] r]|]; [|discriminate]. intro H. injection H as <- <-. eauto.
  - destruct (oper P o op) as [[[o1 wk] r]|]; [|discriminate]. intro H. injection H as <- <-. eauto.
  - intro H. injection H as <- <-. auto.
Qed.

(* `cond : object -> what-is-awaited -> Prop` includes "closed / failed" *)
Definition NoLostWakeup (P : proto) (cond : Obj P -> PArg P -> Prop) : Prop :=
  forall s, reach (lift P) s ->
  forall w, t_sleep (snd s w) = true -> cond (fst s) (t_arg (snd s w)) -> t_pend (snd s w) = true.

Definition Observes (P : proto) (cond : Obj P -> PArg P -> Prop) : Prop :=
  forall s, reach (lift P) s -> forall w a o' wk r,
  cond (fst s) a -> poll P (fst s) w a = Some (o', wk, r) -> r <> Pending.

(* `registered o w a` = the object holds w's Waker in the place that the notifiers of `a` look at. *)
Record discipline (P : proto) (cond : Obj P -> PArg P -> Prop) := {
  Inv : Obj P -> Prop;
  registered : Obj P -> wid -> PArg P -> Prop;
  inv0 : Inv (obj0 P);
  inv_poll : forall o w a o' wk r, Inv o -> poll P o w a = Some (o', wk, r) -> Inv o';
  inv_oper : forall o op o' wk r, Inv o -> oper P o op = Some (o', wk, r) -> Inv o';
  (* check and register are atomic: a poll that parks leaves the task registered with its
     condition false (or has invoked its Waker itself) *)
  d_park : forall o w a o' wk, Inv o -> poll P o w a = Some (o', wk, Pending) ->
           ~ In w wk -> registered o' w a /\ ~ cond o' a;
  (* nobody else's poll removes the registration or makes the condition true silently *)
  d_other : forall o w' a' o' wk r w a, Inv o -> poll P o w' a' = Some (o', wk, r) -> w <> w' ->
           registered o w a -> ~ cond o a -> ~ In w wk -> registered o' w a /\ ~ cond o' a;
  (* set-and-notify are atomic: a method that does not invoke w's Waker neither drops the
     registration nor makes w's condition true *)
  d_oper : forall o op o' wk r w a, Inv o -> oper P o op = Some (o', wk, r) ->
           registered o w a -> ~ cond o a -> ~ In w wk -> registered o' w a /\ ~ cond o' a
}.

Arguments Inv {P cond}.
Arguments registered {P cond}.
Arguments inv0 {P cond}.
Arguments inv_poll {P cond}.
Arguments inv_oper {P cond}.
Arguments d_park {P cond}.
Arguments d_other {P cond}.
Arguments d_oper {P cond}.

Section Discipline.
  Variable P : proto.
  Variable cond : Obj P -> PArg P -> Prop.
  Variable D : discipline P cond.

  Definition LInv (s : lstate P) : Prop :=
    Inv D (fst s) /\
    forall w, t_sleep (snd s w) = true -> t_pend (snd s w) = false ->
              registered D (fst s) w (t_arg (snd s w)) /\ ~ cond (fst s) (t_arg (snd s w)).

  Lemma linv_reach : forall s, reach (lift P) s -> LInv s.
  Proof.
    apply invariant_rule.
    - split; [apply inv0|]. intros w H. discriminate.
    - intros [o t] l [o' t'] _ [HI HW] Hs. apply lstep_cases in Hs. unfold LInv. cbn [fst snd] in *.
      destruct l as [w a|op|w].
      + destruct Hs as (wk & r & E & ->). split; [eapply inv_poll; eauto|]. intros x Hsl Hpe.
        destruct (wake_all_unwoken _ _ _ Hpe) as [Hn Ex]. rewrite Ex in *.
        unfold set_polled in *. destruct (Nat.eq_dec x w) as [->|Nx].
        * rewrite upd_same in *. cbn in *. destruct r; [|discriminate]. eapply d_park; eauto.
        * rewrite upd_other in * by exact Nx. destruct (HW x Hsl Hpe). eapply d_other; eauto.
      + destruct Hs as (wk & r & E & ->). split; [eapply inv_oper; eauto|]. intros x Hsl Hpe.
        destruct (wake_all_unwoken _ _ _ Hpe) as [Hn Ex]. rewrite Ex in *.
        destruct (HW x Hsl Hpe). eapply d_oper; eauto.
      + destruct Hs as [-> ->]. split; [exact HI|]. intros x. unfold set_dropped.
        destruct (Nat.eq_dec x w) as [->|Nx]; [rewrite upd_same; discriminate|].
        rewrite upd_other by exact Nx. apply HW.
  Qed.

  Theorem no_lost_wakeup : NoLostWakeup P cond.
  Proof.
    intros s Hr w Hsl Hc. destruct (linv_reach s Hr) as [_ HW].
    destruct (t_pend (snd s w)) eqn:E; [reflexivity|].
    destruct (HW w Hsl E) as [_ Hn]. contradiction.
  Qed.

  Theorem inv_reach : forall s, reach (lift P) s -> Inv D (fst s).
  Proof. intros s Hr. apply (linv_reach s Hr). Qed.
End Discipline.

Lemma NoLostWakeup_weaken (P : proto) (cond cond' : Obj P -> PArg P -> Prop) :
  (forall o a, cond' o a -> cond o a) -> NoLostWakeup P cond -> NoLostWakeup P cond'.
Proof. intros H N s Hr w Hs Hc. exact (N s Hr w Hs (H _ _ Hc)). Qed.

(* The discipline for objects that need no invariant, over ONE predicate, with the other half of the
   contract.  `parked o w a`: w's Waker is where the notifiers of `a` look and nothing that would wake it
   has happened yet (it says, in positive form, that `cond` is false). *)
Theorem waiters_parked (P : proto) (cond obs : Obj P -> PArg P -> Prop) (parked : Obj P -> wid -> PArg P -> Prop) :
  (forall o w a, parked o w a -> ~ cond o a) ->
  (forall o w a o' wk, poll P o w a = Some (o', wk, Pending) -> ~ obs o a /\ (In w wk \/ parked o' w a)) ->
  (forall o w' a' o' wk r w a, poll P o w' a' = Some (o', wk, r) -> w <> w' -> parked o w a ->
     In w wk \/ parked o' w a) ->
  (forall o op o' wk r w a, oper P o op = Some (o', wk, r) -> parked o w a -> In w wk \/ parked o' w a) ->
  NoLostWakeup P cond /\ Observes P obs.
Proof.
  intros Hc Hp Hx Ho.
  assert (K : forall o w a wk, In w wk \/ parked o w a -> ~ In w wk -> parked o w a /\ ~ cond o a)
    by (intros o w a wk [X|X] Hn; [contradiction|eauto]).
  split.
  - apply no_lost_wakeup. refine (Build_discipline P cond (fun _ => True) parked I _ _ _ _ _); eauto.
    intros o w a o' wk _ H. apply K, (Hp _ _ _ _ _ H).
  - intros s _ w a o' wk r Hca H ->. apply Hp in H. tauto.
Qed.

(* Objects with ONE Waker slot, used by waiter 0 alone (a second task would overwrite the slot or hit
   the panic that guards it): nobody else polls, and a poll wakes nobody. *)
Theorem single_waiter (P : proto) (cond obs : Obj P -> PArg P -> Prop) (parked : Obj P -> PArg P -> Prop) :
  (forall o w a x, poll P o w a = Some x -> w = 0) ->
  (forall o a, parked o a -> ~ cond o a) ->
  (forall o a o' wk, poll P o 0 a = Some (o', wk, Pending) -> ~ obs o a /\ parked o' a) ->
  (forall o op o' wk r a, oper P o op = Some (o', wk, r) -> parked o a -> In 0 wk \/ parked o' a) ->
  NoLostWakeup P cond /\ Observes P obs.
Proof.
  intros H0 Hc Hp Ho. apply waiters_parked with (parked := fun o w a => w = 0 /\ parked o a).
  - intros o w a [_ H]. exact (Hc _ _ H).
  - intros o w a o' wk H. pose proof (H0 _ _ _ _ H). subst w. apply Hp in H. tauto.
  - intros o w' a' o' wk r w a H Hne [Hw _]. apply H0 in H. congruence.
  - intros o op o' wk r w a H [-> Hk]. destruct (Ho _ _ _ _ _ _ H Hk); auto.
Qed.

Definition skipped : Z := (-9)%Z.

Definition obs3 {A} (code : Z) (t : tasks A) : list Z :=
  [code; Z.of_N (t_cnt (t 0%nat)); Z.of_N (t_cnt (t 1%nat)); Z.of_N (t_cnt (t 2%nat))].

(* a label that is not enabled (or an undecodable line) is skipped: state unchanged, code -9;
   the harness applies the same guard before calling into the Rust object *)
Fixpoint lrun (P : proto) (dec : N -> list Z -> option (lbl P)) (s : lstate P)
              (ops : list (N * list Z)) : list (list Z) :=
  match ops with
  | [] => []
  | (tag, args) :: rest =>
      match dec tag args with
      | Some l =>
          match lexec P s l with
          | Some (s', c) => obs3 c (snd s') :: lrun P dec s' rest
          | None => obs3 skipped (snd s) :: lrun P dec s rest
          end
      | None => obs3 skipped (snd s) :: lrun P dec s rest
      end
  end.
