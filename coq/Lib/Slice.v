(* Lists measured in N ([lenN], [takeN], [dropN]) and slices of a content function. *)
From Coq Require Import List NArith ZArith Lia.
Import ListNotations.
From GQ Require Import Lib.Base.
Local Open Scope N_scope.

Lemma lenN_nil {A} : lenN (@nil A) = 0.
Proof. reflexivity. Qed.

Lemma lenN_cons {A} (x : A) l : lenN (x :: l) = 1 + lenN l.
Proof. unfold lenN; cbn [length]; lia. Qed.

Lemma lenN_app {A} (l1 l2 : list A) : lenN (l1 ++ l2) = lenN l1 + lenN l2.
Proof. unfold lenN; rewrite app_length; lia. Qed.

Lemma lenN_repeat {A} (x : A) n : lenN (repeat x (N.to_nat n)) = n.
Proof. unfold lenN; rewrite repeat_length; lia. Qed.

Lemma lenN_zero {A} (l : list A) : lenN l = 0 <-> l = [].
Proof. unfold lenN; destruct l; cbn [length]; split; intro H; try reflexivity; try discriminate; lia. Qed.

Lemma lenN_pos {A} (l : list A) : l <> [] <-> 0 < lenN l.
Proof. unfold lenN; destruct l; cbn [length]; split; intro H; try congruence; try lia. Qed.

Lemma lenN_takeN {A} n (l : list A) : lenN (takeN n l) = N.min n (lenN l).
Proof. unfold lenN, takeN; rewrite firstn_length; lia. Qed.

Lemma lenN_dropN {A} n (l : list A) : lenN (dropN n l) = lenN l - n.
Proof. unfold lenN, dropN; rewrite skipn_length; lia. Qed.

Lemma takeN_dropN {A} n (l : list A) : takeN n l ++ dropN n l = l.
Proof. apply firstn_skipn. Qed.

Lemma dropN_0 {A} (l : list A) : dropN 0 l = l.
Proof. reflexivity. Qed.

Lemma dropN_all {A} n (l : list A) : lenN l <= n -> dropN n l = [].
Proof. unfold lenN, dropN; intro H; apply skipn_all2; lia. Qed.

Lemma takeN_all {A} n (l : list A) : lenN l <= n -> takeN n l = l.
Proof. unfold lenN, takeN; intro H; apply firstn_all2; lia. Qed.

Lemma firstn_app_length {A} (a b : list A) : firstn (length a) (a ++ b) = a.
Proof. induction a; cbn; [reflexivity|]. f_equal. auto. Qed.

Lemma skipn_app_length {A} (a b : list A) : skipn (length a) (a ++ b) = b.
Proof. induction a; cbn; auto. Qed.

Lemma nth_error_skipn {A} n : forall (l : list A) k, nth_error (skipn n l) k = nth_error l (n + k).
Proof. induction n; destruct l; intros; cbn; auto. destruct k; reflexivity. Qed.

Lemma nth_error_dropN {A} k (l : list A) i : nth_error (dropN k l) i = nth_error l (N.to_nat k + i).
Proof. apply nth_error_skipn. Qed.

Lemma takeN_app_exact {A} n (l1 l2 : list A) : lenN l1 = n -> takeN n (l1 ++ l2) = l1.
Proof. intros <-. unfold takeN, lenN. rewrite Nnat.Nat2N.id. apply firstn_app_length. Qed.

Lemma dropN_app_exact {A} n (l1 l2 : list A) : lenN l1 = n -> dropN n (l1 ++ l2) = l2.
Proof. intros <-. unfold dropN, lenN. rewrite Nnat.Nat2N.id. apply skipn_app_length. Qed.

Lemma slice_nat_length c off n : length (slice_nat c off n) = n.
Proof. revert off; induction n as [|n IH]; intro off; cbn [slice_nat length]; [reflexivity|now rewrite IH]. Qed.

Lemma lenN_slice c off len : lenN (slice c off len) = len.
Proof. unfold lenN, slice; rewrite slice_nat_length; lia. Qed.

Lemma slice_nat_app c off n m :
  slice_nat c off (n + m) = slice_nat c off n ++ slice_nat c (off + N.of_nat n) m.
Proof.
  revert off; induction n as [|n IH]; intro off.
  - cbn [slice_nat plus app]. now replace (off + N.of_nat 0) with off by lia.
  - cbn [slice_nat plus app]. rewrite IH. do 3 f_equal. lia.
Qed.

Lemma slice_app c off n m : slice c off (n + m) = slice c off n ++ slice c (off + n) m.
Proof.
  unfold slice. replace (N.to_nat (n + m)) with (N.to_nat n + N.to_nat m)%nat by lia.
  rewrite slice_nat_app. do 3 f_equal. lia.
Qed.

Lemma slice_0 c off : slice c off 0 = [].
Proof. reflexivity. Qed.

Lemma takeN_slice c off len k : k <= len -> takeN k (slice c off len) = slice c off k.
Proof.
  intro H. replace len with (k + (len - k)) by lia. rewrite slice_app. apply takeN_app_exact, lenN_slice.
Qed.

Lemma dropN_slice c off len k : k <= len -> dropN k (slice c off len) = slice c (off + k) (len - k).
Proof.
  intro H. replace len with (k + (len - k)) at 1 by lia. rewrite slice_app. apply dropN_app_exact, lenN_slice.
Qed.

Definition is_slice (c : N -> Z) (off : N) (l : list Z) : Prop := l = slice c off (lenN l).

Lemma is_slice_slice c off len : is_slice c off (slice c off len).
Proof. unfold is_slice. now rewrite lenN_slice. Qed.

Lemma is_slice_take c off l k : is_slice c off l -> is_slice c off (takeN k l).
Proof.
  unfold is_slice; intro H. rewrite lenN_takeN.
  destruct (N.le_gt_cases k (lenN l)) as [Hk|Hk].
  - replace (N.min k (lenN l)) with k by lia.
    rewrite H at 1. apply takeN_slice. exact Hk.
  - replace (N.min k (lenN l)) with (lenN l) by lia.
    rewrite takeN_all by lia. exact H.
Qed.

Lemma is_slice_drop c off l k : k <= lenN l -> is_slice c off l -> is_slice c (off + k) (dropN k l).
Proof.
  unfold is_slice; intros Hk H. rewrite lenN_dropN.
  rewrite H at 1. apply dropN_slice. exact Hk.
Qed.

Lemma is_slice_app c off l1 l2 :
  is_slice c off l1 -> is_slice c (off + lenN l1) l2 -> is_slice c off (l1 ++ l2).
Proof.
  unfold is_slice; intros H1 H2. rewrite lenN_app, slice_app, <- H1, <- H2. reflexivity.
Qed.

Lemma is_slice_nil c off : is_slice c off [].
Proof. reflexivity. Qed.
